(* FrA_ascii_resync_proofs.v — C11 for the ASCII framer: recovery from an ARBITRARY state
   (any buffered garbage, any header) by one read of valid frames. *)
From PM.theories Require Import Base FrBaseA FrAscii FrSpecA.
From PM.Generated Require Import GenFramerA.
From PM.proofs Require Import Base_proofs FrA_stream_proofs FrA_ascii_proofs.
Open Scope list_scope.
Open Scope Z_scope.

Lemma find_colon_app X t :
  exists X0 X1, X = X0 ++ X1 /\ find_sub [COLON] (X ++ COLON :: t) = Some (length X0) /\
                (X1 = [] \/ exists X2, X1 = COLON :: X2).
Proof.
  induction X as [|x X (X0 & X1 & -> & Hs & Hd)]; [exists [], []; auto|].
  cbn [app find_sub prefix_eqb]. destruct (N.eqb COLON x) eqn:E.
  - apply N.eqb_eq in E as <-. exists [], (COLON :: X0 ++ X1). eauto.
  - exists (x :: X0), X1. cbn [andb]. now rewrite Hs.
Qed.

Lemma find_crlf_app A B c :
  c <> LF ->
  find_sub [CR; LF] (A ++ c :: B) =
  match find_sub [CR; LF] A with
  | Some e => Some e
  | None => match find_sub [CR; LF] (c :: B) with Some e => Some (length A + e)%nat | None => None end
  end.
Proof.
  intros Hc. remember (find_sub [CR; LF] (c :: B)) as fB eqn:HfB.
  induction A as [|a A IH]; [cbn [app]; rewrite <- HfB; now destruct fB|].
  cbn [app length find_sub]. rewrite IH.
  replace (prefix_eqb [CR; LF] (a :: A ++ c :: B)) with (prefix_eqb [CR; LF] (a :: A)).
  - destruct (prefix_eqb _ (a :: A)); [reflexivity|]. destruct (find_sub _ A); [reflexivity|]. now destruct fB.
  - destruct A as [|a2 A]; [|reflexivity]. cbn [app prefix_eqb].
    apply not_eq_sym, N.eqb_neq in Hc as ->. now rewrite !andb_false_r.
Qed.

Lemma check_clean_trim l h s :
  find_sub [COLON] l = Some s ->
  check_clean {| a_buf := l; a_hdr := h |} = check_clean {| a_buf := skipn s l; a_hdr := h |}.
Proof.
  intros Hs. destruct (find_sub_split _ _ _ Hs) as (a & t & -> & <-).
  unfold check_clean. cbn [a_buf a_hdr]. rewrite Hs, skipn_app_exact by reflexivity. reflexivity.
Qed.

Lemma a_loop_same dec units single f st st2 :
  a_isready ascii st = a_isready ascii st2 -> (a_isready ascii st = false -> st = st2) ->
  a_check lrc ascii st = a_check lrc ascii st2 ->
  a_loop base lrc ascii dec (S f) units single st = a_loop base lrc ascii dec (S f) units single st2.
Proof.
  intros Hr Hn Hc. cbn [a_loop]. rewrite <- Hr, <- Hc. destruct (a_isready ascii st); [reflexivity|].
  now rewrite (Hn eq_refl).
Qed.

Section Recover.
Variable dec : bytes -> dres.
Variable c : cfg.
(* the loop as a_recv runs it: generated code, this decoder, unit list and single flag of c *)
Notation aloop n := (a_loop base lrc ascii dec n (c_units c) (single_of (a_single_default ascii) c)).

Variable v : frame.
Variable vs : list frame.
Hypothesis Hv : valid_frame KAscii dec c v.
Hypothesis Hvs : Forall (valid_frame KAscii dec c) vs.

Definition traffic_tl : bytes := concat (map (spec_adu KAscii) vs).
Definition traffic : bytes := spec_adu KAscii v ++ traffic_tl.

Lemma traffic_shape : traffic = (COLON :: fH v) ++ CR :: LF :: traffic_tl.
Proof. apply adu_ascii_app. Qed.

Lemma ready_traffic X h : a_isready ascii {| a_buf := X ++ traffic; a_hdr := h |} = true.
Proof. rewrite a_ready_eq. cbn [a_buf]. unfold traffic. rewrite !app_length, adu_ascii_length. lia. Qed.

Lemma traffic_find_crlf A :
  find_sub [CR; LF] (A ++ traffic) =
  match find_sub [CR; LF] A with Some e => Some e | None => Some (length A + S (length (fH v)))%nat end.
Proof.
  rewrite traffic_shape. cbn [app]. rewrite find_crlf_app by discriminate.
  change (COLON :: fH v ++ ?t) with ((COLON :: fH v) ++ t). now rewrite find_crlf_skip by apply fH_not_cr, Hv.
Qed.

Lemma loop_traffic fuel h : (length traffic < fuel)%nat ->
  aloop fuel {| a_buf := traffic; a_hdr := h |} =
  ({| a_buf := []; a_hdr := ahdr0 |}, map (spec_delivery KAscii) (v :: vs), Done).
Proof.
  intros Hf. rewrite <- (ref_deliveries_valid KAscii dec c) by now constructor.
  apply (loop_whole (ascii_framer_ok dec c) (v :: vs)); [|exact Hf].
  apply (Forall_impl _ (valid_stream_frame KAscii dec c)). now constructor.
Qed.

(* X1: the part of the garbage X from its first ':' on; a span is accepted only if it ends inside X1 *)
Lemma check_garbage X h :
  check_clean {| a_buf := X ++ traffic; a_hdr := h |} = check_clean {| a_buf := traffic; a_hdr := h |} \/
  exists X1 h1 ok, check_clean {| a_buf := X ++ traffic; a_hdr := h |} = ({| a_buf := X1 ++ traffic; a_hdr := h1 |}, ok) /\
    (0 < length X1 <= length X)%nat /\ 1 <= a_len h1 /\ (ok = true -> a_len h1 + 2 <= Z.of_nat (length X1)).
Proof.
  destruct (find_colon_app X (fH v ++ CR :: LF :: traffic_tl)) as (X0 & X1 & -> & Hs & Hshape).
  change (COLON :: fH v ++ ?t) with ((COLON :: fH v) ++ t) in Hs. rewrite <- traffic_shape in Hs.
  rewrite (check_clean_trim _ _ _ Hs), <- app_assoc, skipn_app_exact by reflexivity.
  destruct Hshape as [->|(X2 & ->)]; [now left|right]. exists (COLON :: X2).
  assert (HX : (0 < length (COLON :: X2) <= length (X0 ++ COLON :: X2))%nat) by (rewrite app_length; cbn [length]; lia).
  pose proof (traffic_find_crlf (COLON :: X2)) as Hf. cbn [app] in *.
  destruct (find_sub [CR; LF] (COLON :: X2)) as [e|] eqn:Ee;
    destruct (check_clean_at _ h _ Hf) as (h1 & ok & -> & HL & Hok); exists h1, ok; (split; [reflexivity|]);
    rewrite HL; split; [exact HX| |exact HX|].
  - (* a CR LF inside the garbage *)
    destruct (find_sub_split _ _ _ Ee) as ([|a0 a] & t & Ea & <-); [discriminate Ea|].
    apply (f_equal (@length N)) in Ea. rewrite !app_length in Ea. cbn [length] in *. lia.
  - (* the first CR LF is the one of the first valid frame: the span contains its ':', which is not hex *)
    pose proof (fH_length v) as HfH. cbn [length] in *. split; [lia|]. intros ->. destruct (Hok eq_refl) as (data & Hd).
    exfalso. revert Hd. rewrite pyslice_nonneg by lia. change (Z.to_nat 1) with 1%nat.
    rewrite traffic_shape. cbn [app skipn]. rewrite firstn_app, firstn_all2 by lia.
    replace (_ - length X2)%nat with (S (length (fH v) - 2)) by lia. apply a2b_hex_colon.
Qed.

Lemma skipn_app_le {A} n (a b : list A) : (n <= length a)%nat -> skipn n (a ++ b) = skipn n a ++ b.
Proof. intros H. rewrite skipn_app. now replace (n - length a)%nat with 0%nat by lia. Qed.

Theorem recover_loop : forall fuel X h st' ds,
  (length (X ++ traffic) < fuel)%nat ->
  aloop fuel {| a_buf := X ++ traffic; a_hdr := h |} = (st', ds, Done) ->
  a_sync st' /\ exists ds0, ds = ds0 ++ map (spec_delivery KAscii) (v :: vs).
Proof.
  induction fuel as [|f IH]; intros X h st' ds Hlen Hrun; [lia|]. rewrite app_length in Hlen.
  destruct (check_garbage X h) as [Et|(X1 & h1 & ok & Ec & HX1 & Hl1 & Hok)].
  { (* only valid traffic from the first ':' on *)
    rewrite (a_loop_same _ _ _ _ _ {| a_buf := traffic; a_hdr := h |}) in Hrun.
    - rewrite loop_traffic in Hrun by lia. injection Hrun as <- <-. split; [now split|now exists []].
    - exact (eq_trans (ready_traffic X h) (eq_sym (ready_traffic [] h))).
    - rewrite ready_traffic. discriminate.
    - now rewrite !a_check_eq. }
  (* garbage from a ':' on: whatever the iteration does, it goes on with shorter garbage *)
  assert (Hnext : forall n ds1, (0 < n <= length X1)%nat ->
            aloop f {| a_buf := skipn n (X1 ++ traffic); a_hdr := ahdr0 |} = (st', ds1, Done) ->
            a_sync st' /\ exists ds0, ds1 = ds0 ++ map (spec_delivery KAscii) (v :: vs)).
  { intros n ds1 Hn Hr. rewrite skipn_app_le in Hr by lia. apply IH in Hr; [exact Hr|].
    rewrite app_length, skipn_length. lia. }
  destruct (a_loop_cases Hrun) as [(_ & _ & Hd)|[(st1 & Hc & Hadv)|(st1 & _ & Hc & _ & E)]];
    rewrite Ec in *; clear Ec IH Hrun.
  - destruct (Hd eq_refl) as [Hr|(st1 & [= <- _] & H0)]; [now rewrite ready_traffic in Hr|]. cbn [a_hdr] in H0. lia.
  - injection Hc as <- ->. specialize (Hok eq_refl). rewrite a_advance_eq in Hadv. cbn [a_buf a_hdr] in Hadv.
    rewrite pyfrom_nonneg in Hadv by lia.
    assert (Hn : (0 < Z.to_nat (a_len h1 + 2) <= length X1)%nat) by lia.
    destruct Hadv as [E|(frame & fc & ds2 & _ & _ & -> & E)]; [exact (Hnext _ _ Hn E)|].
    destruct (Hnext _ _ Hn E) as (Hs & ds0 & ->). split; [exact Hs|]. now eexists (_ :: ds0).
  - injection Hc as <- _. rewrite a_dropone_eq in E. cbn [a_buf] in E. rewrite pyfrom_nonneg in E by lia.
    apply (Hnext (Z.to_nat 1) _ ltac:(lia) E).
Qed.

End Recover.

Theorem ascii_recover dec c st (vs : list frame) st' ds o :
  vs <> [] -> Forall (valid_frame KAscii dec c) vs ->
  a_recv base lrc ascii dec c st (concat (map (spec_adu KAscii) vs)) = (st', ds, o) ->
  o = Done -> a_sync st' /\ exists ds0, ds = ds0 ++ map (spec_delivery KAscii) vs.
Proof.
  intros Hne Hv Hrun ->. destruct vs as [|v vs]; [now elim Hne|]. revert Hrun. unfold a_recv.
  apply (recover_loop dec c v vs (Forall_inv Hv) (Forall_inv_tail Hv)). unfold traffic, traffic_tl. cbn [a_buf map concat]. lia.
Qed.
