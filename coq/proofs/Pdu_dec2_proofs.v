(* Pdu_dec2_proofs.v — C01 decode: the loops over sub-records (file records FC 20/21, device
   identification FC 43/14 on one page with distinct object ids), then [decode_spec]: the factory's
   _helper applied to the specification's PDU of [m] returns [obj_of_msg m]; that object stands for [m]
   (up to the padding of bit lists), which gives the existential form of C01 and the wire-derived attributes. *)
From PM.theories Require Import Base Struct PduCls PduSpec Pdu CorrPdu.
From PM.proofs Require Import Base_proofs Pdu_bits_proofs Pdu_proofs Pdu_more_proofs Pdu_dec1_proofs.
Open Scope string_scope.
Open Scope list_scope.
Open Scope Z_scope.
Ltac Zify.zify_post_hook ::= Z.to_euclidean_division_equations.

Lemma zslice_mid (pre x rest : bytes) :
  zslice (pre ++ x ++ rest) (len pre) (len pre + len x) = x.
Proof.
  unfold zslice, bslice, len. rewrite Nat2Z.id.
  replace (Z.to_nat (Z.of_nat (length pre) + Z.of_nat (length x)) - length pre)%nat with (length x) by lia.
  rewrite skipn_app_exact by reflexivity. now apply firstn_app_exact.
Qed.

Lemma words_wfb l : all_u16 l = true -> wfb (words l) = true.
Proof.
  induction l as [|v t IH]; intros H; [reflexivity|].
  cbn [all_u16 forallb] in H. apply andb_true_iff in H as [Hv Ht]. unfold is_u16 in Hv.
  unfold words. cbn [flat_map]. unfold u16 at 1. cbn [app]. fold (words t).
  apply wfb_cons. split; [lia|]. apply wfb_cons. split; [lia|now apply IH].
Qed.

Lemma words_of_bytes_words l : all_u16 l = true -> words_of_bytes (words l) = Some l.
Proof.
  induction l as [|v t IH]; intros H; [reflexivity|].
  cbn [all_u16 forallb] in H. apply andb_true_iff in H as [Hv Ht].
  unfold words. cbn [flat_map]. unfold u16 at 1. cbn [app words_of_bytes]. fold (words t).
  rewrite IH by exact Ht. now rewrite rd_be16_of_u16.
Qed.

(* [data] and [count] are named by equations so that the lemma rewrites any buffer convertible with [pre ++ ...] *)
Lemma dec_read_subreqs_spec ss : forall pre data count,
  data = pre ++ flat_map sub_read_bytes ss -> count = len pre -> forallb sub_read_wf ss = true ->
  dec_read_subreqs (length ss) data count = Ok (map mk_read ss).
Proof.
  induction ss as [|s t IH]; intros pre data count -> -> Hw; [reflexivity|].
  cbn [forallb] in Hw. apply andb_true_iff in Hw as [Hs Ht]. unfold sub_read_wf in Hs.
  cbn [length dec_read_subreqs flat_map]. change 7 with (len (sub_read_bytes s)).
  rewrite zslice_mid, (upk_fields [FB; FH; FH; FH] [6; sr_file s; sr_record s; sr_length s]) by (reflexivity || widths).
  cbn [bind]. now rewrite (IH (pre ++ sub_read_bytes s)) by (assumption || now rewrite ?len_app, <- ?app_assoc).
Qed.

Lemma dec_read_file r0 ss : forallb sub_read_wf ss = true ->
  decode_into (OFileRecs ReadFileRecordRequest r0) (u8 (7 * len ss) ++ flat_map sub_read_bytes ss) =
  Ok (OFileRecs ReadFileRecordRequest (map mk_read ss)).
Proof.
  intros Hs. pose proof (len_nonneg ss). cbn [decode_into u8 app data0 bind]. tab. rewrite Z2N.id by lia.
  rewrite (range_len_count 1 _ 7 (len ss)) by lia. unfold len at 1. rewrite Nat2Z.id.
  now erewrite (dec_read_subreqs_spec ss [_]).
Qed.

Lemma zsum_sizes_ge ss : 7 * len ss <= PduSpec.zsum (map sub_write_size ss).
Proof.
  induction ss as [|s t IH]; [cbn; lia|]. cbn [map PduSpec.zsum fold_right]. fold (PduSpec.zsum (map sub_write_size t)).
  unfold sub_write_size at 1. pose proof (len_nonneg (sw_data s)). widths.
Qed.

Lemma dec_write_subs_spec ss : forall fuel pre data count bc acc,
  data = pre ++ flat_map sub_write_bytes ss -> count = len pre ->
  forallb sub_write_wf ss = true -> (length ss <= fuel)%nat ->
  len pre + PduSpec.zsum (map sub_write_size ss) = bc + 1 ->
  dec_write_subs fuel data count bc acc = Ok (acc ++ map mk_write ss).
Proof.
  induction ss as [|s t IH]; intros fuel pre data count bc acc -> -> Hw Hf Hb.
  - cbn [map PduSpec.zsum fold_right] in Hb. destruct fuel; cbn [dec_write_subs];
      replace (len pre <? bc) with false by lia; cbn [map]; now rewrite app_nil_r.
  - cbn [forallb] in Hw. apply andb_true_iff in Hw as [Hs Ht]. unfold sub_write_wf in Hs.
    cbn [map PduSpec.zsum fold_right] in Hb. fold (PduSpec.zsum (map sub_write_size t)) in Hb.
    pose proof (zsum_sizes_ge t) as Hge. pose proof (len_nonneg t) as Hn. pose proof (len_nonneg (sw_data s)) as Hnd.
    unfold sub_write_size at 1 in Hb.
    destruct fuel as [|fuel]; [cbn [length] in Hf; lia|]. cbn [dec_write_subs flat_map].
    replace (len pre <? bc) with true by lia.
    set (hd := [6%N] ++ u16 (sw_file s) ++ u16 (sw_record s) ++ u16 (len (sw_data s))).
    replace (sub_write_bytes s) with (hd ++ words (sw_data s)) by (unfold sub_write_bytes, hd; now rewrite <- !app_assoc).
    rewrite <- app_assoc. change 7 with (len hd) at 1.
    rewrite zslice_mid, (upk_fields [FB; FH; FH; FH] [6; sw_file s; sw_record s; len (sw_data s)]) by (reflexivity || widths).
    cbn [bind]. change (6 =? 6) with true. cbv beta iota.
    replace (len pre + len (sw_data s) * 2 + 7 - len (sw_data s) * 2) with (len (pre ++ hd))
      by (rewrite len_app; change (len hd) with 7; lia).
    replace (len pre + len (sw_data s) * 2 + 7) with (len (pre ++ hd) + len (words (sw_data s)))
      by (rewrite len_app, words_len; change (len hd) with 7; lia).
    rewrite (app_assoc pre hd), zslice_mid.
    rewrite (IH _ ((pre ++ hd) ++ words (sw_data s)));
      [now rewrite <- app_assoc|now rewrite app_assoc|symmetry; apply len_app|exact Ht|cbn [length] in Hf; lia|].
    rewrite !len_app, words_len. change (len hd) with 7. lia.
Qed.

Lemma dec_write_file c r0 ss :
  cls_eqb c ReadFileRecordRequest = false -> cls_eqb c ReadFileRecordResponse = false ->
  forallb sub_write_wf ss = true ->
  decode_into (OFileRecs c r0) (u8 (PduSpec.zsum (map sub_write_size ss)) ++ flat_map sub_write_bytes ss) =
  Ok (OFileRecs c (map mk_write ss)).
Proof.
  intros Hc1 Hc2 Hs. pose proof (zsum_sizes_ge ss). pose proof (len_nonneg ss).
  cbn [decode_into u8 app data0 bind]. rewrite Hc1, Hc2, Z2N.id by widths.
  erewrite (dec_write_subs_spec ss _ [_]); [reflexivity|reflexivity|reflexivity|exact Hs|widths|change (len [_]) with 1; lia].
Qed.

Lemma mei_insert_new : forall info k v, ~ In k (map fst info) -> mei_insert info k v = info ++ [(k, MOne v)].
Proof.
  induction info as [|[k' x] t IH]; intros k v H; [reflexivity|]. cbn [mei_insert].
  destruct (Z.eqb_spec k' k) as [->|]; [destruct H; now left|]. cbn [app]. f_equal. apply IH. intros Hi. apply H. now right.
Qed.

Lemma object_bytes_len o : len (object_bytes o) = 2 + len (snd o).
Proof. unfold object_bytes. rewrite !len_app. change (len (u8 (fst o))) with 1. change (len (u8 (len (snd o)))) with 1. lia. Qed.

Lemma dec_mei_objs_spec : forall objs fuel info,
  forallb object_wf objs = true -> NoDup (map fst info ++ map fst objs) -> (length objs <= fuel)%nat ->
  dec_mei_objs fuel (flat_map object_bytes objs) info = Ok (info ++ map mone_item objs).
Proof.
  induction objs as [|[id d] t IH]; intros fuel info Hw Hf Hl.
  - destruct fuel; cbn; now rewrite app_nil_r.
  - cbn [forallb] in Hw. apply andb_true_iff in Hw as [Ho Ht]. unfold object_wf in Ho. cbn [fst snd] in Ho.
    apply andb_true_iff in Ho as [[Hid Hlen]%andb_true_iff _].
    destruct fuel as [|fuel]; [cbn [length] in Hl; lia|].
    cbn [flat_map]. unfold object_bytes at 1. cbn [fst snd]. unfold u8. cbn [app dec_mei_objs].
    unfold is_u8 in Hid, Hlen. rewrite !Z2N.id by lia.
    replace (N.to_nat (Z.to_N (len d))) with (length d) by (unfold len; lia).
    rewrite skipn_app_exact, firstn_app_exact, mei_insert_new by (reflexivity || intros Hi; now apply (NoDup_remove_2 _ _ _ Hf), in_or_app; left).
    rewrite IH; [now rewrite <- app_assoc|exact Ht| |cbn [length] in Hl; lia].
    rewrite map_app, <- app_assoc. exact Hf.
Qed.

Lemma distinct_ids_NoDup objs : distinct_ids objs = true -> NoDup (map fst objs).
Proof.
  induction objs as [|o t IH]; [constructor|]. cbn [distinct_ids map]. intros [Hn Ht]%andb_true_iff.
  constructor; [|now apply IH]. intros (x & Hx & Hi)%in_map_iff. apply negb_true_iff in Hn.
  rewrite (proj2 (existsb_exists _ _)) in Hn; [discriminate|]. exists x. split; [exact Hi|]. rewrite Hx. apply Z.eqb_refl.
Qed.

Lemma mei_items_one objs : mei_items (map mone_item objs) = objs.
Proof. induction objs as [|[i d] t IH]; [reflexivity|]. unfold mei_items in *. cbn [map flat_map mone_item fst snd app]. now rewrite IH. Qed.

Lemma dec_mei s0 r0 c0 m0 n0 k0 i0 sl rc cf more next objs :
  is_u8 rc = true -> is_u8 cf = true -> is_u8 more = true -> is_u8 next = true -> is_u8 (len objs) = true ->
  forallb object_wf objs = true -> distinct_ids objs = true ->
  decode_into (OMeiRsp s0 r0 c0 m0 n0 k0 i0 sl)
    (14%N :: u8 rc ++ u8 cf ++ u8 more ++ u8 next ++ u8 (len objs) ++ flat_map object_bytes objs) =
  Ok (OMeiRsp 14 rc cf more next (len objs) (map mone_item objs) sl).
Proof.
  intros H1 H2 H3 H4 H5 Hw Hd. cbn [decode_into].
  (* the MEI type byte joins the five header fields as a sixth [u8] *)
  change (14%N :: ?x) with ((u8 14 ++ u8 rc ++ u8 cf ++ u8 more ++ u8 next ++ u8 (len objs)) ++ flat_map object_bytes objs).
  rewrite bslice_prefix, skipn_app_exact by reflexivity.
  rewrite (upk_fields _ [14; rc; cf; more; next; len objs]) by (reflexivity || widths). cbn [bind].
  rewrite dec_mei_objs_spec; [reflexivity|exact Hw| |].
  - now apply distinct_ids_NoDup.
  - rewrite app_length. pose proof (objects_length objs). lia.
Qed.

(* a class with a generated layout: [vs] are the values on the wire *)
Ltac fixed vs := rewrite (dec_fixed_fields _ _ _ _ vs) by (reflexivity || widths); reflexivity.

Theorem decode_spec m : spec_wf m = true -> conforming_decode m = true ->
  py_decode (msg_is_request m) (spec_pdu m) = Ok (obj_of_msg m).
Proof.
  intros Hwf Hc.
  destruct m as [a q|a q|a q|a q|a v|a v| |s d| | |a cs|a rs| |ss|ss|a x y|ra rq wa ws|a|rc oid
                |cs|cs|rs|rs|a v|a v|st|s d|b n|b ec mc evs|a q|a q|id run|ds|ss|a x y|rs|rs|rc cf more next objs|fc code];
    try discriminate Hc; cbn [spec_wf] in Hwf; split_andb Hwf.
  (* MException: by [exception_decode], before the table look-up is evaluated *)
  36: { unfold py_decode, msg_is_request, spec_pdu. rewrite exception_decode by widths.
        now rewrite Z.add_simpl_r, Z2N.id by widths. }
  all: dec_head.
  - (* MReadCoilsReq *) fixed [a; q].
  - (* MReadDiscreteReq *) fixed [a; q].
  - (* MReadHoldingReq *) fixed [a; q].
  - (* MReadInputReq *) fixed [a; q].
  - (* MWriteCoilReq *) rewrite dec_coil by assumption. reflexivity.
  - (* MWriteRegReq *) cbn [decode_into]. rewrite (upk_fields [FH; FH] [a; v]) by (reflexivity || widths). reflexivity.
  - (* MReadExcStatusReq *) reflexivity.
  - (* MDiagReq *) destruct d as [|w [|]]; try discriminate Hc. cbn [all_u16 forallb] in *. cbn [decode_into]. tab.
    rewrite (upk_fields [FH; FH] [s; w]) by (reflexivity || widths). cbn [bind].
    unfold reclass. cbn [obj_sub class_of]. tab. cbv beta iota. rewrite subdispatch_server.
    unfold obj_of_msg, spec_class. now destruct (spec_request_subclass 8 s).
  - (* MCommEventCounterReq *) reflexivity.
  - (* MCommEventLogReq *) reflexivity.
  - (* MWriteCoilsReq *) cbn [decode_into]. rewrite !app_assoc, bslice_prefix, skipn_app_exact, <- !app_assoc by reflexivity.
    rewrite (upk_fields [FH; FH; FB] [a; len cs; bit_byte_count (len cs)]) by (reflexivity || widths). cbn [bind].
    rewrite py_unpack_spec. unfold len at 1. now rewrite Nat2Z.id, firstn_unpack_pack.
  - (* MWriteRegsReq *) pose proof (u8_len_u16 rs ltac:(assumption)). pose proof (len_nonneg rs).
    cbn [decode_into]. rewrite !app_assoc, bslice_prefix, skipn_app_exact, <- !app_assoc by reflexivity.
    rewrite (upk_fields [FH; FH; FB] [a; len rs; 2 * len rs]) by (reflexivity || widths). cbn [bind].
    now rewrite (range_len_count 5 _ 2 (len rs)), read_words_words by (assumption || lia).
  - (* MReportSlaveIdReq *) reflexivity.
  - (* MReadFileReq *) rewrite dec_read_file by assumption. reflexivity.
  - (* MWriteFileReq *) rewrite dec_write_file by (reflexivity || assumption). reflexivity.
  - (* MMaskWriteReq *) fixed [a; x; y].
  - (* MReadWriteRegsReq *) pose proof (u8_len_u16 ws ltac:(assumption)). pose proof (len_nonneg ws).
    cbn [decode_into]. rewrite !app_assoc, bslice_prefix, skipn_app_exact, <- !app_assoc by reflexivity.
    rewrite (upk_fields [FH; FH; FH; FH; FB] [ra; rq; wa; len ws; 2 * len ws]) by (reflexivity || widths). cbn [bind].
    now rewrite (range_len_count 9 _ 2 (len ws)), read_words_words by (assumption || lia).
  - (* MReadFifoReq *) fixed [a].
  - (* MReadDevIdReq *) fixed [14; rc; oid].
  - (* MReadCoilsRsp *) rewrite dec_bits by assumption. reflexivity.
  - (* MReadDiscreteRsp *) rewrite dec_bits by assumption. reflexivity.
  - (* MReadHoldingRsp *) rewrite dec_regs by assumption. reflexivity.
  - (* MReadInputRsp *) rewrite dec_regs by assumption. reflexivity.
  - (* MWriteCoilRsp *) rewrite dec_coil by assumption. reflexivity.
  - (* MWriteRegRsp *) fixed [a; v].
  - (* MReadExcStatusRsp *) cbn. now rewrite Z2N.id by widths.
  - (* MDiagRsp *) rewrite dec_diag_rsp by (reflexivity || (cbn [all_u16 forallb]; now rewrite Hwf)). cbn [bind].
    unfold reclass. cbn [obj_sub class_of]. tab. cbv beta iota. rewrite subdispatch_client.
    unfold obj_of_msg, spec_class. now destruct (spec_response_subclass 8 s).
  - (* MCommEventCounterRsp *) cbn [decode_into]. rewrite (upk_fields [FH; FH] [if b then 65535 else 0; n]) by (destruct b; reflexivity || widths).
    now destruct b.
  - (* MCommEventLogRsp *) rewrite dec_evlog by assumption. reflexivity.
  - (* MWriteCoilsRsp *) fixed [a; q].
  - (* MWriteRegsRsp *) fixed [a; q].
  - (* MWriteFileRsp *) rewrite dec_write_file by (reflexivity || assumption). reflexivity.
  - (* MMaskWriteRsp *) fixed [a; x; y].
  - (* MReadWriteRegsRsp *) rewrite dec_regs by assumption. reflexivity.
  - (* MReadDevIdRsp *) cbn [conforming_decode] in Hc. apply andb_true_iff in Hc as [Hd _]. rewrite dec_mei by assumption. reflexivity.
Qed.

Lemma diag_subclass_props sub :
  (forall c', spec_request_subclass 8 sub = Some c' -> fc_of c' = Some 8 /\ is_request c' = true) /\
  (forall c', spec_response_subclass 8 sub = Some c' -> fc_of c' = Some 8 /\ is_request c' = false).
Proof.
  unfold spec_request_subclass, spec_response_subclass. change (8 =? 8) with true. cbv beta iota.
  split; intros c'; repeat (destruct (sub =? _); [intros [= <-]; split; reflexivity|]); discriminate.
Qed.

Lemma sub_read_eta ss : map rs_sub_read (map mk_read ss) = ss.
Proof. induction ss as [|[f r l] t IH]; [reflexivity|]. cbn [map]. now rewrite IH. Qed.

Lemma all_ref6_read ss : forallb (fun r => fr_ref r =? 6) (map mk_read ss) = true.
Proof. induction ss as [|s t IH]; [reflexivity|exact IH]. Qed.

Lemma sub_write_eta ss : forallb sub_write_wf ss = true -> opt_map rs_sub_write (map mk_write ss) = Some ss.
Proof.
  induction ss as [|[f r d] t IH]; intros H; [reflexivity|].
  cbn [forallb] in H. apply andb_true_iff in H as [Hs Ht]. unfold sub_write_wf in Hs. cbn [sw_data] in Hs. split_andb Hs.
  cbn [map opt_map]. unfold rs_sub_write at 1. cbn [mk_write mk_frec fr_data fr_file fr_recno sw_data sw_file sw_record].
  now rewrite words_of_bytes_words, IH.
Qed.

Lemma write_recs_ok ss : forallb sub_write_wf ss = true ->
  forallb write_rec_ok (map mk_write ss) = true.
Proof.
  induction ss as [|s t IH]; intros H; [reflexivity|].
  cbn [forallb] in H. apply andb_true_iff in H as [Hs Ht]. unfold sub_write_wf in Hs. split_andb Hs.
  cbn [map forallb]. rewrite IH by exact Ht. unfold write_rec_ok. cbn [mk_write mk_frec fr_ref fr_len fr_data].
  rewrite words_wfb by assumption. pose proof (words_len (sw_data s)).
  now replace (len (sw_data s) * 2 =? zlen (words (sw_data s))) with true by widths.
Qed.

Lemma padded_count cs :
  bit_byte_count (len (spec_unpack_bits (spec_pack_bits cs))) = bit_byte_count (len cs).
Proof. unfold len. rewrite spec_unpack_length. pose proof (spec_pack_bits_length cs). widths. Qed.

Lemma spec_pdu_padded m : spec_pdu (padded m) = spec_pdu m.
Proof.
  destruct m; try reflexivity; cbn [padded spec_pdu];
    now rewrite padded_count, pack_unpack by apply spec_pack_bits_wfb.
Qed.

Lemma abs_obj_of_msg m : spec_wf m = true -> conforming_decode m = true -> abs (obj_of_msg m) = Some (padded m).
Proof.
  intros Hwf Hc. unfold abs.
  assert (Hr : abs_raw (obj_of_msg m) = Some (padded m)); [|rewrite Hr].
  - (* most kinds compute; the others follow in the order of [msg] *)
    destruct m; try discriminate Hc; try reflexivity; cbn [obj_of_msg abs_raw padded spec_class].
    + (* MDiagReq *) destruct data as [|w [|]]; try discriminate Hc. destruct (diag_subclass_props sub) as [P _].
      destruct (spec_request_subclass 8 sub) as [c'|]; [|reflexivity]. destruct (P c' eq_refl) as [-> ->]. reflexivity.
    + (* MWriteRegsReq *) now rewrite !Z.eqb_refl.
    + (* MReadFileReq *) now rewrite all_ref6_read, sub_read_eta.
    + (* MWriteFileReq *) cbn [spec_wf] in Hwf. apply andb_true_iff in Hwf as [_ Hs]. fold rs_sub_write.
      now rewrite write_recs_ok, sub_write_eta.
    + (* MReadWriteRegsReq *) now rewrite !Z.eqb_refl.
    + (* MDiagRsp *) destruct (diag_subclass_props sub) as [_ P].
      destruct (spec_response_subclass 8 sub) as [c'|]; [|reflexivity]. destruct (P c' eq_refl) as [-> ->]. reflexivity.
    + (* MCommEventCounterRsp *) now destruct busy.
    + (* MCommEventLogRsp *) now destruct busy.
    + (* MWriteFileRsp *) cbn [spec_wf] in Hwf. apply andb_true_iff in Hwf as [_ Hs]. fold rs_sub_write.
      now rewrite write_recs_ok, sub_write_eta.
    + (* MReadDevIdRsp *) cbn [conforming_decode] in Hc. apply andb_true_iff in Hc as [_ Hf]. now rewrite mei_items_one, Hf.
    + (* MException *) now rewrite Z.eqb_refl.
  - destruct m; cbn [padded]; try (now rewrite Hwf); cbn [spec_wf] in *; now rewrite padded_count, Hwf.
Qed.

Lemma msg_matches_padded m : msg_matches m (padded m) = true.
Proof.
  destruct m; cbn [padded msg_matches]; try apply unpack_pack_upto_pad;
    now rewrite ?Z.eqb_refl, ?Bool.eqb_reflx, ?bytes_eqb_refl, ?zl_eqb_refl,
      ?(list_eqb_refl _ Bool.eqb_reflx), ?(list_eqb_refl _ sub_read_eqb_refl), ?(list_eqb_refl _ sub_write_eqb_refl),
      ?(list_eqb_refl _ object_eqb_refl), ?(list_eqb_refl _ zl_eqb_refl).
Qed.

Theorem decode_conforms m : spec_wf m = true -> conforming_decode m = true ->
  exists o d, py_decode (msg_is_request m) (spec_pdu m) = Ok o /\ class_of o = spec_class m /\ abs o = Some d /\ msg_matches m d = true.
Proof.
  intros Hwf Hc. exists (obj_of_msg m), (padded m).
  repeat split; [now apply decode_spec|apply obj_class|now apply abs_obj_of_msg|apply msg_matches_padded].
Qed.

Theorem decode_wire_attrs m o : spec_wf m = true -> conforming_decode m = true ->
  py_decode (msg_is_request m) (spec_pdu m) = Ok o -> wire_attrs_ok m o = true.
Proof.
  intros Hwf Hc H. rewrite (decode_spec m Hwf Hc) in H. injection H as <-.
  destruct m; try reflexivity; apply Z.eqb_refl.
Qed.
