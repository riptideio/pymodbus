(* Pdu_size_proofs.v — the length of every specification PDU, and the 253-byte limit. *)
From PM.theories Require Import Base Struct PduCls PduSpec Pdu CorrPdu.
From PM.proofs Require Import Pdu_bits_proofs Pdu_proofs.
From Coq Require Import ZifyBool.
Open Scope list_scope.
Open Scope Z_scope.
Ltac Zify.zify_post_hook ::= Z.to_euclidean_division_equations.

Lemma len_cons {A} (x : A) (l : list A) : len (x :: l) = 1 + len l.
Proof. unfold len. cbn [length]. lia. Qed.

Lemma len_nil {A} : len (@nil A) = 0.
Proof. reflexivity. Qed.

Lemma len_u16 v : len (u16 v) = 2.
Proof. reflexivity. Qed.

Lemma len_u8 v : len (u8 v) = 1.
Proof. reflexivity. Qed.

Lemma len_pack cs : len (spec_pack_bits cs) = bit_byte_count (len cs).
Proof. apply spec_pack_bits_length. Qed.

Lemma len_on b : len (on_word b) = 2.
Proof. destruct b; reflexivity. Qed.

Lemma len_busy b : len (busy_word b) = 2.
Proof. destruct b; reflexivity. Qed.

Lemma len_flat_u8 l : len (flat_map u8 l) = len l.
Proof. induction l as [|v t IH]; [reflexivity|]. cbn [flat_map]. rewrite len_app, len_u8, IH, len_cons. lia. Qed.

Lemma len_sub_reads ss : len (flat_map sub_read_bytes ss) = 7 * len ss.
Proof.
  induction ss as [|s t IH]; [reflexivity|]. cbn [flat_map]. rewrite len_app, IH, len_cons.
  change (len (sub_read_bytes s)) with 7. lia.
Qed.

Lemma len_sub_writes ss : len (flat_map sub_write_bytes ss) = PduSpec.zsum (map sub_write_size ss).
Proof.
  induction ss as [|s t IH]; [reflexivity|]. cbn [flat_map map PduSpec.zsum fold_right]. fold (PduSpec.zsum (map sub_write_size t)).
  rewrite len_app, IH. unfold sub_write_bytes, sub_write_size. rewrite !len_app, !len_u16, words_len, len_cons, len_nil. lia.
Qed.

Lemma len_sub_resps ds : len (flat_map sub_resp_bytes ds) = PduSpec.zsum (map sub_resp_size ds).
Proof.
  induction ds as [|d t IH]; [reflexivity|]. cbn [flat_map map PduSpec.zsum fold_right]. fold (PduSpec.zsum (map sub_resp_size t)).
  rewrite len_app, IH. unfold sub_resp_bytes, sub_resp_size. rewrite !len_app, len_u8, words_len, len_cons, len_nil. lia.
Qed.

Lemma len_objects objs : len (flat_map object_bytes objs) = PduSpec.zsum (map (fun o => 2 + len (snd o)) objs).
Proof.
  induction objs as [|o t IH]; [reflexivity|]. cbn [flat_map map PduSpec.zsum fold_right].
  fold (PduSpec.zsum (map (fun o => 2 + len (snd o)) t)). rewrite len_app, IH. unfold object_bytes.
  rewrite !len_app, !len_u8. now replace (1 + (1 + len (snd o))) with (2 + len (snd o)) by lia.
Qed.

Theorem spec_pdu_length m : len (spec_pdu m) = pdu_size m.
Proof.
  destruct m; cbn [spec_pdu pdu_size];
    rewrite ?len_app, ?len_cons, ?len_nil, ?len_u16, ?len_u8, ?words_len, ?len_pack, ?len_on, ?len_busy, ?len_flat_u8,
            ?len_sub_reads, ?len_sub_writes, ?len_sub_resps, ?len_objects; lia.
Qed.

Theorem spec_pdu_limit m : spec_limits m = true -> 1 <= len (spec_pdu m) <= 253.
Proof.
  rewrite spec_pdu_length. intros H.
  destruct m; cbn [spec_limits pdu_size] in *; unfold within, bit_byte_count, len in *; lia.
Qed.

(* 264 = the 10-byte header of the FC 23 request plus the largest even byte count, 254 *)
Definition byte_counted (m : msg) : bool :=
  match m with
  | MDiagReq _ _ | MDiagRsp _ _ | MReadFifoRsp _ | MReadDevIdRsp _ _ _ _ _ => false
  | _ => true
  end.

Theorem spec_pdu_wf_bound m : spec_wf m = true -> byte_counted m = true -> len (spec_pdu m) <= 264.
Proof.
  rewrite spec_pdu_length. intros H Hb.
  destruct m; try discriminate Hb; cbn [spec_wf pdu_size] in *; unfold is_u8, is_u16, bit_byte_count, len in *; lia.
Qed.
