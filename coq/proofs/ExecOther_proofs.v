(* The execute() scripts of the request classes that do not touch the datastore (GenExecOther.code)
   against ExecOtherSpec: refinement, request by request, inside the conformance region; the control
   block on which the witnesses outside it are evaluated; which requests can change the counters. *)
From PM.theories Require Import Base Expr Store Pdu Device ExecOther ExecOtherSpec ExecOtherView.
From PM.Generated Require GenExec GenExecOther.
From PM.proofs Require Import Base_proofs.
Open Scope string_scope.
Open Scope list_scope.
Open Scope Z_scope.

Notation XC := GenExec.code.
Notation YC := GenExecOther.code.

(* [cbn] on a control block with symbolic counters must not unfold integer arithmetic, nor the block's
   own readings (those also for proofs/EndToEndExt_proofs.v, hence not local) *)
Local Arguments Z.shiftr : simpl never.
Local Arguments Z.shiftl : simpl never.
Local Arguments Z.land : simpl never.
Local Arguments Z.lor : simpl never.
Local Arguments Z.mul : simpl never.
Local Arguments Z.add : simpl never.
Arguments summary_from : simpl never.
Arguments reg_of_flags : simpl never.
Arguments py_pack_bitstring : simpl never.
Arguments slave_identifier : simpl never.
Arguments get_events : simpl never.

(* ModbusControlBlock always has its nine counters and sixteen diagnostic flags *)
Definition wf_dev (dv : device) : Prop :=
  length (d_counters dv) = 9%nat /\ length (d_diag dv) = 16%nat.

Definition refines_at (dv : device) (w : owire) : Prop :=
  exists q dv' r, obj_of_wire w = Some q /\ serve_other XC YC dv q = Some (dv', r) /\
    view_other r = Some (snd (spec_other (abs_dev dv) w)) /\
    sdev_eqb (abs_dev dv') (fst (spec_other (abs_dev dv) w)) = true /\ wf_dev dv'.

Lemma zl_eqb_refl l : zl_eqb l l = true.
Proof. apply list_eqb_refl, Z.eqb_refl. Qed.

Lemma sdev_eqb_refl s : sdev_eqb s s = true.
Proof. unfold sdev_eqb. rewrite !Z.eqb_refl, !zl_eqb_refl, !eqb_reflx. reflexivity. Qed.

(* a well-formed control block as a record with nine named counters; leaves [dg ev li de pl idn], [Hc], [Hd] *)
Ltac dev_destruct dv Hwf :=
  let cs := fresh "cs" in
  destruct dv as [cs dg ev li de pl idn]; destruct Hwf as [Hc Hd]; cbn [d_counters d_diag] in Hc, Hd;
  do 9 (destruct cs as [|? cs]; [discriminate Hc|]); destruct cs; [|discriminate Hc].

(* the new control block abstracts to the spec's new state, field by field *)
Ltac close_state :=
  unfold sdev_eqb, get_events, slave_identifier; cbn;
  rewrite ?Z2N.id by lia; rewrite ?Z.eqb_refl, ?zl_eqb_refl, ?eqb_reflx; reflexivity.

Lemma refines_intro dv w q dv' r s' x :
  obj_of_wire w = Some q -> serve_other XC YC dv q = Some (dv', r) ->
  spec_other (abs_dev dv) w = (s', x) -> view_other r = Some x ->
  sdev_eqb (abs_dev dv') s' = true -> wf_dev dv' -> refines_at dv w.
Proof. intros Hq Hs Hx Hv He Hwf. exists q, dv', r. rewrite Hx. auto. Qed.

Lemma refines_same dv w q r x :
  wf_dev dv -> obj_of_wire w = Some q -> serve_other XC YC dv q = Some (dv, r) ->
  spec_other (abs_dev dv) w = (abs_dev dv, x) -> view_other r = Some x -> refines_at dv w.
Proof. intros Hwf Hq Hs Hx Hv. eapply refines_intro; eauto using sdev_eqb_refl. Qed.

(* FC 7: the status bitmap runs over all nine counters; with the ninth, the event counter, at 0 it is the
   eight-bit one the document asks for *)
Lemma summary9_event0 c0 c1 c2 c3 c4 c5 c6 c7 :
  summary_from [c0; c1; c2; c3; c4; c5; c6; c7; 0] 1 0 = summary_from [c0; c1; c2; c3; c4; c5; c6; c7] 1 0.
Proof. reflexivity. Qed.

Lemma delim_byte data :
  Z.shiftr (Z.land data 65280) 8 = Z.land (Z.shiftr data 8) 255 /\ 0 <= Z.land (Z.shiftr data 8) 255 < 256.
Proof.
  split.
  - rewrite Z.shiftr_land. reflexivity.
  - change 255 with (Z.ones 8). rewrite Z.land_ones by lia. apply Z.mod_pos_bound. reflexivity.
Qed.

(* the sub-functions where the code does what the document says, except 02 (see diag_register_symmetric) *)
Definition diag_proved (sub : Z) : bool :=
  (sub =? 0) || (sub =? 3) || (sub =? 4) || ((11 <=? sub) && (sub <=? 18)) || (sub =? 20).

Lemma reg_of_flags_false n w : reg_of_flags (repeat false n) w = 0.
Proof. revert w. induction n as [|n IH]; intros w; [reflexivity|]. cbn [repeat]. unfold reg_of_flags; fold reg_of_flags. rewrite IH. reflexivity. Qed.

Section Explicit.
Variables (c0 c1 c2 c3 c4 c5 c6 c7 c8 : Z) (dg : list bool) (ev : list bytes) (li : bool) (de : bytes)
          (pl : list Z) (idn : list bytes).
Let dv := {| d_counters := [c0; c1; c2; c3; c4; c5; c6; c7; c8]; d_diag := dg; d_events := ev;
             d_listen := li; d_delim := de; d_plus := pl; d_ident := idn |}.
Hypothesis Hwf : wf_dev dv.

Lemma refines_exc_status : c8 = 0 -> refines_at dv WExcStatus.
Proof.
  intros H8. eapply refines_same; [exact Hwf|reflexivity..|].
  cbn [view_other]. unfold summary, dv. cbn [d_counters]. rewrite H8, summary9_event0. reflexivity.
Qed.

Lemma refines_plain w : In w [WEvCounter; WEvLog; WReportId] -> refines_at dv w.
Proof.
  intros [<-|[<-|[<-|[]]]]; (eapply refines_same; [exact Hwf|reflexivity|vm_compute; reflexivity|reflexivity..]).
Qed.

Lemma refines_diag_read sub data :
  In sub [0; 11; 12; 13; 14; 15; 16; 17; 18] -> refines_at dv (WDiag sub data).
Proof.
  intros H. repeat (destruct H as [<-|H]; [eapply refines_same; [exact Hwf|reflexivity|vm_compute; reflexivity|reflexivity..]|]). destruct H.
Qed.

Lemma refines_delimiter data : refines_at dv (WDiag 3 data).
Proof.
  destruct (delim_byte data) as [He Hr]. eapply refines_intro.
  - reflexivity.
  - lazy -[Z.shiftr Z.land Z.leb Z.ltb andb Z.to_N]. rewrite He.
    replace ((0 <=? Z.land (Z.shiftr data 8) 255) && (Z.land (Z.shiftr data 8) 255 <? 256)) with true by lia.
    reflexivity.
  - reflexivity.
  - reflexivity.
  - close_state.
  - split; [reflexivity|apply Hwf].
Qed.

Lemma refines_listen_only data : refines_at dv (WDiag 4 data).
Proof.
  eapply refines_intro; [reflexivity|vm_compute; reflexivity|reflexivity|reflexivity|close_state|split; [reflexivity|apply Hwf]].
Qed.

Lemma refines_clear_overrun data : refines_at dv (WDiag 20 data).
Proof.
  eapply refines_intro; [reflexivity|vm_compute; reflexivity|reflexivity|reflexivity|close_state|split; [reflexivity|apply Hwf]].
Qed.

Lemma refines_diag sub data : diag_proved sub = true -> refines_at dv (WDiag sub data).
Proof.
  intros Hs. unfold diag_proved in Hs.
  assert (In sub [0; 11; 12; 13; 14; 15; 16; 17; 18] \/ sub = 3 \/ sub = 4 \/ sub = 20) as [H|[->|[->| ->]]]
    by (cbn [In]; lia).
  - apply refines_diag_read, H.
  - apply refines_delimiter.
  - apply refines_listen_only.
  - apply refines_clear_overrun.
Qed.

(* 0A clear counters: conforms when the event log is empty (the code wipes it too) *)
Lemma refines_clear_counters data : ev = [] -> refines_at dv (WDiag 10 data).
Proof.
  intros Hev. eapply refines_intro; [reflexivity..| |split; reflexivity].
  unfold sdev_eqb, dv, get_events, slave_identifier. cbn -[repeat].
  rewrite reg_of_flags_false, Hev, !zl_eqb_refl, eqb_reflx. reflexivity.
Qed.

End Explicit.

(* conforms_region minus sub-function 02 (conformance on byte-symmetric registers is only evaluated, see
   diag_register_symmetric) and minus FC 7 with a non-zero event counter *)
Definition proved_region (dv : device) (w : owire) : Prop :=
  match w with
  | WExcStatus => cnt dv 8 = 0
  | WEvCounter | WEvLog | WReportId => True
  | WDiag sub _ => diag_proved sub = true \/ (sub = 10 /\ d_events dv = [])
  | _ => False
  end.

Lemma proved_in_conforms dv w : proved_region dv w -> conforms_region (abs_dev dv) w = true.
Proof.
  destruct w; cbn [proved_region conforms_region]; intros H; try contradiction; try reflexivity.
  - cbn. lia.
  - destruct H as [H|[-> He]].
    + unfold diag_proved in H. unfold diag_defined.
      destruct (sub =? 1) eqn:E1; [lia|]. destruct (sub =? 2) eqn:E2; [lia|]. destruct (sub =? 10) eqn:E3; [lia|]. lia.
    + cbn. unfold get_events. rewrite He. reflexivity.
Qed.

Definition s_counter_free (s : sstmt) : bool :=
  match s with TReset | TSetCounter _ _ => false | _ => true end.
Definition counter_free (st : ostmt) : bool :=
  match st with
  | TS s => s_counter_free s
  | TIfEq _ _ th el => forallb s_counter_free th && forallb s_counter_free el
  | _ => true
  end.

Lemma run_s_counters Y dv s lo st dv' lo' :
  s_counter_free st = true -> run_s Y dv s lo st = Ok (dv', lo') -> d_counters dv' = d_counters dv.
Proof.
  destruct st; cbn [s_counter_free run_s]; intros Hf H; try discriminate Hf.
  - destruct (eval_d Y dv s lo d); cbn [bind] in H; [|discriminate]. injection H as <- _. reflexivity.
  - destruct (eval_d Y dv s lo d) as [v|]; cbn [bind] in H; [|discriminate].
    destruct (Store.assoc_str lo x) as [[| | | |]|]; try discriminate; destruct v; try discriminate.
    injection H as <- _. reflexivity.
  - destruct (eval_d Y dv s lo d) as [v|]; cbn [bind] in H; [|discriminate].
    destruct v; try (injection H as <- _; reflexivity).
    destruct ((0 <=? z) && (z <? 256)); [|discriminate]. injection H as <- _. reflexivity.
  - destruct (eval_d Y dv s lo d); cbn [bind] in H; [|discriminate]. injection H as <- _. reflexivity.
  - injection H as <- _. reflexivity.
Qed.

Lemma run_ss_counters Y dv s lo l :
  forallb s_counter_free l = true -> d_counters (fst (run_ss Y dv s lo l)) = d_counters dv.
Proof.
  revert dv lo. induction l as [|st l IH]; intros dv lo Hf; [reflexivity|].
  cbn [forallb] in Hf. apply andb_true_iff in Hf as [H1 H2]. cbn [run_ss].
  destruct (run_s Y dv s lo st) as [[dv' lo']|] eqn:E; [|reflexivity].
  rewrite IH by exact H2. eapply run_s_counters; eassumption.
Qed.

Theorem run_o_counters X Y sc fc dv s lo :
  forallb counter_free sc = true -> d_counters (fst (run_o X Y sc fc dv s lo)) = d_counters dv.
Proof.
  revert dv lo. induction sc as [|st k IH]; intros dv lo Hf; [reflexivity|].
  cbn [forallb] in Hf. apply andb_true_iff in Hf as [H1 H2]. destruct st; cbn [run_o counter_free] in *.
  - destruct (run_s Y dv s lo s0) as [[dv' lo']|] eqn:E; [|reflexivity].
    rewrite IH by exact H2. eapply run_s_counters; eassumption.
  - apply andb_true_iff in H1 as [Ht He].
    destruct (eval_d Y dv s lo a) as [va|]; [|reflexivity].
    destruct (eval_d Y dv s lo b) as [vb|]; [|reflexivity].
    pose proof (run_ss_counters Y dv s lo (if oval_eqb va vb then th else el)) as Hc.
    destruct (run_ss Y dv s lo (if oval_eqb va vb then th else el)) as [dv' [lo'|e]].
    + rewrite IH by exact H2. apply Hc. destruct (oval_eqb va vb); assumption.
    + apply Hc. destruct (oval_eqb va vb); assumption.
  - destruct (oenv s); [|reflexivity]. destruct (beval _ _); [reflexivity|]. apply IH. exact H2.
  - destruct (eval_args Y dv s lo args); reflexivity.
  - reflexivity.
Qed.

(* of the 25 generated scripts exactly two contain a statement that can change a counter *)
Theorem only_two_scripts_touch_counters :
  forallb (fun p => Bool.eqb (forallb counter_free (snd p))
                             (negb (String.eqb (fst p) "ClearCountersRequest" || String.eqb (fst p) "ClearOverrunCountRequest")))
          (y_scripts YC) = true.
Proof. vm_compute. reflexivity. Qed.

Lemma assoc_str_in {A} (l : list (string * A)) k v : Store.assoc_str l k = Some v -> In (k, v) l.
Proof.
  induction l as [|[k0 v0] l IH]; cbn [Store.assoc_str In]; [discriminate|].
  destruct (String.eqb_spec k0 k) as [->|_]; [intros [= ->]; auto|auto].
Qed.

(* the control block and the readings on which the witnesses of Props/C04_other.v are evaluated (the
   other_… suites replay them on the real code) *)
Definition dev_ex : device :=
  {| d_counters := [5; 0; 0; 3; 0; 0; 0; 2; 9]; d_diag := true :: repeat false 15;
     d_events := [[4%N]; [0%N]]; d_listen := true; d_delim := [13%N]; d_plus := repeat 0 110; d_ident := [] |}.

Definition sv (dv : device) (w : owire) : option (device * obj) :=
  match obj_of_wire w with Some q => serve_other XC YC dv q | None => None end.
Definition rsp_of (dv : device) (w : owire) : option sresp :=
  match sv dv w with Some (_, r) => view_other r | None => None end.

(* 6.8/02: the diagnostic register is sent low byte first (C04_other_diag_register_refuted); the answer
   conforms when both bytes of the register are equal *)
Example diag_register_symmetric :
  let dv := {| d_counters := repeat 0 9; d_diag := [true; false; true; false; false; false; false; false;
                                                    true; false; true; false; false; false; false; false];
               d_events := []; d_listen := false; d_delim := [13%N]; d_plus := repeat 0 110; d_ident := [] |} in
  conforms_region (abs_dev dv) (WDiag 2 0) = true /\
  rsp_of dv (WDiag 2 0) = Some (snd (spec_other (abs_dev dv) (WDiag 2 0))).
Proof. vm_compute. split; reflexivity. Qed.

(* Modbus Plus statistics: 55 words after the operation word (the tables of the Modicon guide have 54) *)
Theorem modbus_plus_55_words :
  match rsp_of dev_ex (WDiag 21 3) with Some (SDiag 21 l) => length l = 56%nat | _ => False end.
Proof. vm_compute. reflexivity. Qed.
