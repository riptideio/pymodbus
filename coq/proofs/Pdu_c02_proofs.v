(* Pdu_c02_proofs.v — C02: the case analyses over all object constructors (encode is pure, decode does not
   accumulate) and two facts the short derivations of Props/C02.v need. *)
From PM.theories Require Import Base Struct PduCls PduSpec Pdu CorrPdu.
From PM.Generated Require Import GenPdu.
From PM.proofs Require Import Struct_proofs Pdu_bits_proofs Pdu_proofs Pdu_more_proofs Pdu_dec_proofs.
From Coq Require Import ZifyBool.
Open Scope string_scope.
Open Scope list_scope.
Open Scope Z_scope.

Theorem encode_pure o b o1 : encode_st o = (Ok b, o1) -> encode_st o1 = (Ok b, o1).
Proof.
  destruct o; cbn [encode_st]; intros H;
    try (injection H as H <-; cbn [encode_st]; f_equal; exact H);
    try (injection H as <- <-; reflexivity).
  - (* write multiple coils: byte_count is recomputed from the value list *)
    destruct (pk [FH; FH; FB] [address; zlen values; (zlen values + 7) / 8]) as [h|e] eqn:E; [injection H as <- <-|discriminate H].
    cbn [encode_st]. rewrite E. reflexivity.
  - (* file records: three encoders selected by class *)
    destruct (cls_eqb c ReadFileRecordRequest) eqn:E1; [|destruct (cls_eqb c ReadFileRecordResponse) eqn:E2];
      injection H as H <-; cbn [encode_st]; rewrite E1, ?E2; f_equal; exact H.
  - (* device information: bookkeeping attributes are recomputed from the information dict *)
    destruct (pk [FB; FB; FB] [sub_function_code; read_code; conformity]) as [p|e] eqn:Ep; [|discriminate H].
    destruct (mei_objs (mei_items information) (253 - 6) 0 []) as [[[[objs space] n] oos]|e] eqn:Em; [|discriminate H].
    match type of H with context [pk [FB; FB; FB] ?l] => destruct (pk [FB; FB; FB] l) as [q|e] eqn:Eq; [|discriminate H] end.
    injection H as <- <-. cbn [encode_st]. rewrite Ep, Em.
    destruct oos as [oid|]; rewrite Eq; reflexivity.
Qed.

Theorem decode_fresh o data o' :
  wf_shape o = true -> class_of o <> ReadWriteMultipleRegistersResponse ->
  decode_into o data = Ok o' ->
  exists f, decode_into (fresh_like o) data = Ok f /\ blank f = blank o'.
Proof.
  intros Hs Hc H. unfold wf_shape in Hs.
  (* a class-carrying object has the shape of [fresh c], which then carries the same class *)
  destruct o; cbn [fresh_like class_of] in *.
  all: try (destruct (fresh c) eqn:F; try discriminate Hs; cbn [same_shape] in Hs; apply cls_eqb_true in Hs; subst c0).
  all: cbn [fresh decode_into] in *.
  (* all decoders but two ignore the attributes of the instance they decode into *)
  all: try (exists o'; split; [exact H|reflexivity]).
  - (* ORegsRsp *) destruct (cls_eqb c ReadWriteMultipleRegistersResponse) eqn:E; [now apply cls_eqb_true in E|].
    exists o'. split; [exact H|reflexivity].
  - (* OMeiRsp: space_left is the only attribute decode leaves alone *)
    destruct (upk [FB; FB; FB; FB; FB; FB] (bslice data 0 6)) as [d|e]; [|discriminate H]. cbn [bind] in *.
    destruct d as [|a [|b [|c [|d [|e [|f [|g t]]]]]]]; try discriminate H.
    destruct (dec_mei_objs (length data) (skipn 6 data) []) as [info|e']; [|discriminate H]. cbn [bind] in *.
    injection H as <-. eexists. split; reflexivity.
Qed.

Lemma spec_class_conforming m : conforming_decode m = true -> mem_cls (spec_class m) conforming_encode = true.
Proof.
  intros Hc. destruct m; try discriminate Hc; try reflexivity;
    unfold spec_class, spec_request_subclass, spec_response_subclass; change (8 =? 8) with true; cbv beta iota;
    repeat (destruct (sub =? _); [reflexivity|]); reflexivity.
Qed.

Lemma read_words_prefix_ok : forall data n l, read_words data n = Ok l -> read_words_prefix data n = l.
Proof.
  (* read_words takes two bytes per step: induction on a bound [k] of the length *)
  enough (G : forall k data n l, (length data <= k)%nat -> read_words data n = Ok l -> read_words_prefix data n = l)
    by (intros data n l; exact (G _ data n l (le_n _))).
  induction k as [|k IH]; intros data n l Hk; destruct data as [|h [|lo t]];
    cbn [read_words read_words_prefix]; destruct (n <=? 0); intros H;
    try (injection H as <-; reflexivity); try discriminate H; try (cbn [length] in Hk; lia).
  destruct (read_words t (n - 1)) as [r|] eqn:E; [|discriminate H]. injection H as <-.
  f_equal. apply IH; [cbn [length] in Hk; lia|exact E].
Qed.
