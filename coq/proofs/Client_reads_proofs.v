(* Client_reads_proofs.v — where the bytes handed to processIncomingPacket come from: the response of every
   _transact is the concatenation of (at most two) reads, each a script element clipped to the requested size.
   With it the table invariant needs the framer to be "clean" only on such byte strings. *)
From PM.theories Require Import Base Client.
From PM.Generated Require Import GenClient.
From PM.proofs Require Import Client_proofs.
Open Scope list_scope.
Open Scope Z_scope.

Definition chunk_of (sc : list tev) (x : bytes) : Prop := x = [] \/ exists d n, In (Data d) sc /\ x = clip n d.
Definition built_from (sc : list tev) (bs : bytes) : Prop := exists x y, bs = x ++ y /\ chunk_of sc x /\ chunk_of sc y.

Lemma chunk_of_incl a b x : incl a b -> chunk_of a x -> chunk_of b x.
Proof. intros Hi [->|(d & n & Hin & ->)]; [left; reflexivity|right; exists d, n; split; [apply Hi, Hin|reflexivity]]. Qed.
Lemma built_from_incl a b x : incl a b -> built_from a x -> built_from b x.
Proof. intros Hi (p & q & -> & Hp & Hq). exists p, q. repeat split; eapply chunk_of_incl; eassumption. Qed.

Lemma t_recv_chunk w sz w' x : Client.t_recv w sz = (w', Ok x) -> chunk_of (w_script w) x.
Proof.
  intro H. apply t_recv_spec in H as (_ & _ & H). destruct (H x eq_refl) as [->|(d & Hin & ->)]; [left; reflexivity|].
  right. exists d, sz. split; [exact Hin|reflexivity].
Qed.

Lemma recv_model_built fr w exp full w' bs : recv_model code fr w exp full = (w', Ok bs) -> built_from (w_script w) bs.
Proof.
  rewrite recv_model_eq. destruct full.
  { intro H. apply t_recv_chunk in H. exists bs, []. rewrite app_nil_r. repeat split; [exact H|left; reflexivity]. }
  destruct (Client.t_recv w _) as [w1 [head|e]] eqn:H1; [|discriminate].
  destruct (negb _); [discriminate|]. destruct (func_code fr head) as [fc|e]; [|discriminate].
  destruct (Client.t_recv w1 _) as [w2 [rest|e]] eqn:H2; [|discriminate]. intro H; injection H as _ <-.
  exists head, rest. repeat split; [eapply t_recv_chunk, H1|].
  apply t_recv_spec in H1 as ((_ & Hi1) & _). eapply chunk_of_incl; [exact Hi1|eapply t_recv_chunk, H2].
Qed.

Lemma handed_built E full0 sc resp : handed E full0 sc resp -> built_from sc resp.
Proof.
  intros [->|(w & full & w' & Hi & _ & Hr)]; [exists [], []; repeat split; left; reflexivity|].
  eapply built_from_incl; [exact Hi|eapply recv_model_built, Hr].
Qed.
