(* The extended server (datastores + control block): C01 (decoded station requests) -> C04_other (serve_other)
   -> C01 (response objects); the control block against the abstract station along a request list; a request is
   either a data-access request or a station request. *)
From PM.theories Require Import Base Expr Struct FrBaseA FrTcp FrSpecA Lrc FrAscii PduCls PduSpec Pdu CorrPdu Store Exec ExecSpec ExecView
                                Device ExecOther ExecOtherSpec ExecOtherView Server EndToEnd EndToEndSerial EndToEndExt CorrE2E
                                CorrE2ESerial CorrE2EExt.
From PM.Generated Require GenServer.
From PM.proofs Require Import Base_proofs Pdu_proofs Exec_proofs Server_proofs ExecOther_proofs EndToEnd_adapt_proofs EndToEnd_spec_proofs
                              EndToEnd_proofs EndToEndSerial_proofs.
From PM.proofs Require Pdu_dec1_proofs Pdu_dec2_proofs.
From PM.Props Require C04_other C10.
Open Scope string_scope.
Open Scope list_scope.
Open Scope Z_scope.

(* ExecOtherView's class of a diagnostic request is the one ServerDecoder's sub-function table selects
   (DiagnosticStatusRequest outside the table) *)
Lemma diag_cls_eq sub :
  match spec_request_subclass 8 sub with Some c => c | None => DiagnosticStatusRequest end = diag_request_cls sub.
Proof.
  unfold spec_request_subclass, diag_request_cls. change (8 =? 8) with true. cbv iota.
  repeat (destruct (sub =? _); [reflexivity|]). reflexivity.
Qed.

Theorem decode_station m ow : owire_of_msg m = Some ow -> spec_wf m = true ->
  exists q, py_decode true (spec_pdu m) = Ok q /\ obj_of_wire ow = Some q.
Proof.
  intros Ho Hwf. exists (Pdu_dec1_proofs.obj_of_msg m).
  destruct m; cbn [owire_of_msg] in Ho; try discriminate Ho.
  2: destruct data as [|d [|? ?]]; try discriminate Ho.
  all: injection Ho as <-; split; [exact (Pdu_dec2_proofs.decode_spec _ Hwf eq_refl)|]; try reflexivity.
  cbn [obj_of_wire Pdu_dec1_proofs.obj_of_msg spec_class]. now rewrite diag_cls_eq.
Qed.

Lemma station_not_data m ow : owire_of_msg m = Some ow -> wreq_of_msg m = None.
Proof. destruct m; cbn [owire_of_msg wreq_of_msg]; intros H; try discriminate H; reflexivity. Qed.

Lemma data_not_other dv o r : req_of_obj o = Some r -> e_serve_other dv o = None.
Proof.
  unfold e_serve_other, serve_other, execute_other. intros H.
  destruct o; cbn [req_of_obj] in H; try discriminate H; try (destruct c; try discriminate H); reflexivity.
Qed.

(* counters hold 16-bit values, the comm event counter is 0 and the event log empty (nothing in the
   proved region adds an event or increments a counter: C04_other_counters_frame), the server id fits the
   one-byte count of the Report Server ID response (id, run indicator: at most 255) *)
Definition dev_ok (dv : device) : Prop :=
  wf_dev dv /\ Forall u16v (d_counters dv) /\ cnt dv 8 = 0 /\ d_events dv = [] /\
  wfb (slave_identifier dv pymodbus_id) = true /\ (length (slave_identifier dv pymodbus_id) <= 254)%nat.

(* sub-function 10 (Clear Counters) stands apart from [diag_proved]: C04_other proves it only for an empty event
   log, which [dev_ok] supplies ([region_proved]) *)
Definition station_region (ow : owire) : Prop :=
  match ow with
  | WExcStatus | WEvCounter | WEvLog | WReportId => True
  | WDiag sub data => (diag_proved sub = true \/ sub = 10) /\ is_u16 sub = true /\ is_u16 data = true
  | _ => False
  end.

Lemma region_proved dv ow : dev_ok dv -> station_region ow -> proved_region dv ow.
Proof. intros (_ & _ & H8 & Hev & _) Hr. destruct ow; cbn [station_region proved_region] in *; tauto. Qed.

Lemma diag_sub_cases sub : diag_proved sub = true \/ sub = 10 ->
  In sub [0; 3; 4; 10; 11; 12; 13; 14; 15; 16; 17; 18; 20].
Proof. unfold diag_proved. cbn [In]. lia. Qed.

Lemma lor_pow2_bound r k : 0 <= k -> 0 <= r < 2 ^ k -> 0 <= Z.lor r (2 ^ k) < 2 ^ (k + 1).
Proof.
  intros Hk Hr. assert (Hp : 0 < 2 ^ k) by (apply Z.pow_pos_nonneg; lia).
  assert (Hl : 0 <= Z.lor r (2 ^ k)) by (apply Z.lor_nonneg; lia).
  split; [exact Hl|]. apply Z.log2_lt_pow2.
  - destruct (Z.eq_dec (Z.lor r (2 ^ k)) 0) as [E|]; [apply Z.lor_eq_0_iff in E|]; lia.
  - rewrite Z.log2_lor, Z.log2_pow2 by lia. apply Z.max_lub_lt; [|lia].
    destruct (Z.eq_dec r 0) as [->|]; [cbn; lia|]. apply Z.lt_lt_succ_r, Z.log2_lt_pow2; lia.
Qed.

(* summary() sets one bit per counter *)
Lemma summary_from_bound cs : forall k r, 0 <= k -> 0 <= r < 2 ^ k ->
  0 <= summary_from cs (2 ^ k) r < 2 ^ (k + Z.of_nat (length cs)).
Proof.
  induction cs as [|c t IH]; intros k r Hk Hr; cbn [length].
  - now rewrite Z.add_0_r.
  - change (summary_from (c :: t) (2 ^ k) r)
      with (summary_from t (Z.shiftl (2 ^ k) 1) (if c =? 0 then r else Z.lor r (2 ^ k))).
    replace (Z.shiftl (2 ^ k) 1) with (2 ^ (k + 1)) by (now rewrite Z.shiftl_mul_pow2, Z.pow_add_r by lia).
    replace (k + Z.of_nat (S (length t))) with (k + 1 + Z.of_nat (length t)) by lia.
    apply IH; [lia|]. destruct (c =? 0); [rewrite Z.pow_add_r by lia; lia|now apply lor_pow2_bound].
Qed.

Lemma map_to_of_N (b : bytes) : map Z.to_N (map Z.of_N b) = b.
Proof. induction b as [|x t IH]; [reflexivity|]. cbn [map]. now rewrite N2Z.id, IH. Qed.

(* [r] is the object to send for the station's response [s]: no exception response, and it stands for the spec
   message of [s] with a PDU every framing can carry — or [s] is silence and [r] says so *)
Definition rsp_for (r : obj) (s : sresp) : Prop :=
  (exists rfc, obj_fc r = Ok rfc) /\ exc_code_of r = None /\
  match other_rsp_msg s with
  | Some mr => obj_respond r = true /\ CorrPdu.abs r = Some mr /\ mem_cls (class_of r) conforming_encode = true /\
               (length (spec_pdu mr) <= 300)%nat /\ wfb (spec_pdu mr) = true
  | None => obj_respond r = false
  end.

Lemma rsp_for_intro r s mr rfc :
  obj_fc r = Ok rfc -> exc_code_of r = None -> obj_respond r = true -> abs_raw r = Some mr ->
  mem_cls (class_of r) conforming_encode = true -> other_rsp_msg s = Some mr ->
  spec_wf mr = true -> (length (spec_pdu mr) <= 300)%nat -> wfb (spec_pdu mr) = true -> rsp_for r s.
Proof.
  intros Hfc Hex Hr Ha Hc Hs Hwf Hl Hw. split; [eauto|]. split; [exact Hex|]. rewrite Hs.
  repeat split; try assumption. now apply abs_intro.
Qed.

Lemma rsp_for_diag c sub m ws rfc :
  obj_fc (ODiag c sub m) = Ok rfc -> obj_respond (ODiag c sub m) = true ->
  abs_raw (ODiag c sub m) = Some (MDiagRsp sub ws) -> mem_cls c conforming_encode = true ->
  is_u16 sub = true -> (length ws <=? 1)%nat = true -> Forall u16v ws -> rsp_for (ODiag c sub m) (SDiag sub ws).
Proof.
  intros Hfc Hr Ha Hc Hs Hl Hw. apply all_u16_forall in Hw. apply Nat.leb_le in Hl.
  apply (rsp_for_intro _ (SDiag sub ws) _ _ Hfc eq_refl Hr Ha Hc eq_refl); cbn [spec_wf spec_pdu].
  - now rewrite Hs, Hw.
  - rewrite !app_length, Pdu_dec1_proofs.words_length. cbn [length u16]. lia.
  - now rewrite !wfb_app, (u16_wfb _ Hs), (Pdu_dec2_proofs.words_wfb _ Hw).
Qed.

Lemma rsp_for_status v : 0 <= v < 256 -> rsp_for (OExcStatusRsp v) (SStatus v).
Proof.
  intros Hv. eapply rsp_for_intro; try reflexivity; cbn [spec_wf spec_pdu].
  - unfold is_u8. lia.
  - cbn. lia.
  - rewrite wfb_app, u8_wfb by (unfold is_u8; lia). reflexivity.
Qed.

Lemma rsp_for_ev_log c : u16v c -> rsp_for (OEvLogRsp true c 0 []) (SEvLog 0 0 c []).
Proof.
  intros Hc. apply is_u16_iff in Hc. eapply rsp_for_intro; try reflexivity; cbn [spec_wf spec_pdu].
  - now rewrite Hc.
  - cbn. lia.
  - now rewrite !wfb_app, !u16_wfb.
Qed.

Lemma rsp_for_server_id id : wfb id = true -> (length id <= 254)%nat ->
  rsp_for (OSlaveIdRsp id true None) (SServerId (map Z.of_N id) true).
Proof.
  intros Hw Hl. eapply rsp_for_intro; try reflexivity; cbn [other_rsp_msg spec_wf spec_pdu].
  - now rewrite map_to_of_N.
  - rewrite Hw. unfold is_u8, PduSpec.len. lia.
  - rewrite !app_length. cbn [length u8]. lia.
  - rewrite !wfb_app, Hw, u8_wfb by (unfold is_u8, PduSpec.len; lia). reflexivity.
Qed.

Lemma dev_ok_keep dv dv' : dev_ok dv -> wf_dev dv' -> Forall u16v (d_counters dv') -> cnt dv' 8 = 0 ->
  d_events dv' = [] -> d_ident dv' = d_ident dv -> dev_ok dv'.
Proof.
  intros (_ & _ & _ & _ & Hid) Hwf Hu H8 Hev Hi. unfold dev_ok, slave_identifier in *. rewrite Hi. auto.
Qed.

Theorem station_step dv ow q : dev_ok dv -> station_region ow -> obj_of_wire ow = Some q ->
  exists dv' r, e_serve_other dv q = Some (dv', r) /\ dev_ok dv' /\
    sdev_eqb (abs_dev dv') (fst (spec_other (abs_dev dv) ow)) = true /\ rsp_for r (snd (spec_other (abs_dev dv) ow)).
Proof.
  intros Hok Hreg Hq.
  destruct (C04_other.C04_other_refines dv ow (proj1 Hok) (region_proved dv ow Hok Hreg))
    as (q' & dv' & r & Hq' & Hserve & _ & Hsd & Hwf').
  rewrite Hq in Hq'. injection Hq' as <-. exists dv', r. unfold e_serve_other.
  enough (dev_ok dv' /\ rsp_for r (snd (spec_other (abs_dev dv) ow))) as [Hdv Hr] by auto.
  clear Hsd. pose proof Hok as (Hwf & Hu & H8 & Hev & Hidw & Hidl).
  (* the control block with its nine counters, the ninth being 0 *)
  dev_destruct dv Hwf. cbn [d_counters d_events] in Hu, Hev. unfold cnt in H8. cbn [d_counters nth] in H8. subst.
  rewrite !Forall_cons_iff in Hu. decompose [and] Hu.
  destruct ow; cbn [station_region] in Hreg; try contradiction; cbn [obj_of_wire] in Hq; injection Hq as <-.
  (* FC 8: one goal per sub-function of the region, in the order of [diag_sub_cases] *)
  5: destruct Hreg as (Hsub & _ & Hd16).
  5: assert (Hdata : u16v data) by (now apply is_u16_iff).
  5: apply diag_sub_cases in Hsub; repeat destruct Hsub as [<-|Hsub]; [..|destruct Hsub].
  (* 17 goals: FC 7, 11, 12, 17 (the constructor order of [owire]), then sub-functions 00, 03, 04, 0A-12, 14.
     First 03, the sixth: its delimiter byte is in range *)
  6: destruct (delim_byte data) as [He Hr].
  6: lazy -[Z.land Z.shiftr Z.leb Z.ltb andb Z.to_N] in Hserve; rewrite He in Hserve.
  6: replace ((0 <=? Z.land (Z.shiftr data 8) 255) && (Z.land (Z.shiftr data 8) 255 <? 256)) with true in Hserve by lia.
  (* the script is run by [lazy]; what it computes on the symbolic counters and data word stays folded, in the
     form in which [abs_dev], the rsp_for lemmas and [summary_from_bound] mention it *)
  all: lazy -[summary_from slave_identifier get_events Z.land Z.shiftr Z.lor Z.shiftl Z.to_N] in Hserve.
  (* the new control block keeps the invariant *)
  all: injection Hserve as <- <-; split;
       [apply (dev_ok_keep _ _ Hok Hwf'); try reflexivity; repeat (apply Forall_cons || apply Forall_nil); assumption|].
  (* the sub-functions that answer with one data word *)
  all: try (eapply rsp_for_diag; try reflexivity; repeat (apply Forall_cons || apply Forall_nil); assumption).
  - (* FC 7 *) cbn [spec_other abs_dev snd s_exc_status d_counters firstn]. unfold summary. cbn [d_counters]. rewrite summary9_event0.
    apply rsp_for_status, (summary_from_bound [z; z0; z1; z2; z3; z4; z5; z6] 0 0); lia.
  - (* FC 11 *) eapply rsp_for_intro; try reflexivity. cbn. lia.
  - (* FC 12 *) now apply rsp_for_ev_log.
  - (* FC 17 *) now apply rsp_for_server_id.
  - (* FC 8, 04: no response *) split; [eexists; reflexivity|]. split; [reflexivity|exact eq_refl].
Qed.

(* what sdev_eqb compares; the tuple nests to the left like the && chain of [sdev_eqb] *)
Definition core (s : sdev) :=
  (sc_bus_msg s, sc_bus_comm_err s, sc_exc_err s, sc_server_msg s, sc_no_resp s, sc_nak s, sc_busy s, sc_overrun s,
   sc_event s, s_diag_reg s, s_events s, s_listen s, s_delim s, s_server_id s, s_run s, s_processing s).

Lemma andb_pair_iff {A B} (c : bool) (p p' : A) (eqb : B -> B -> bool) (x x' : B) :
  (c = true <-> p = p') -> (forall u v, eqb u v = true <-> u = v) -> (c && eqb x x' = true <-> (p, x) = (p', x')).
Proof.
  intros Hc He. rewrite andb_true_iff, Hc, He. split; [intros [-> ->]; reflexivity|intros E; now injection E].
Qed.

Lemma zl_eqb_iff a b : list_eqb Z.eqb a b = true <-> a = b.
Proof. split; [apply list_eqb_eq; intros x y; apply Z.eqb_eq|intros ->; apply zl_eqb_refl]. Qed.

Lemma sdev_eqb_core a b : sdev_eqb a b = true <-> core a = core b.
Proof.
  unfold sdev_eqb, core.
  repeat (apply andb_pair_iff; [|exact Z.eqb_eq || exact zl_eqb_iff || exact Bool.eqb_true_iff]). apply Z.eqb_eq.
Qed.

Lemma with_status_abs dv : wf_dev dv -> with_status (abs_dev dv) = abs_dev dv.
Proof. intros Hwf. dev_destruct dv Hwf. reflexivity. Qed.

(* inside the region the step of the abstract station depends only on what sdev_eqb compares *)
Lemma spec_step_core a b ow : core a = core b -> station_region ow ->
  snd (spec_other_step a ow) = snd (spec_other_step b ow) /\
  core (fst (spec_other_step a ow)) = core (fst (spec_other_step b ow)).
Proof.
  intros Hc Hreg. destruct a, b. unfold core in Hc. cbn in Hc.
  injection Hc as -> -> -> -> -> -> -> -> -> -> -> -> -> -> -> ->.
  unfold spec_other_step.
  destruct ow; cbn [station_region] in Hreg; try contradiction.
  1-4: split; reflexivity.
  destruct Hreg as (Hsub & _ & _). apply diag_sub_cases in Hsub.
  repeat destruct Hsub as [<-|Hsub]; [..|destruct Hsub]; split; reflexivity.
Qed.

Definition dev_rel (dv : device) (sd : sdev) : Prop := dev_ok dv /\ sdev_eqb (abs_dev dv) sd = true.

Theorem station_step_rel dv sd ow q : dev_rel dv sd -> station_region ow -> obj_of_wire ow = Some q ->
  exists dv' r, e_serve_other dv q = Some (dv', r) /\ dev_rel dv' (fst (spec_other_step sd ow)) /\
    rsp_for r (snd (spec_other_step sd ow)).
Proof.
  intros [Hok Heq] Hreg Hq.
  destruct (station_step dv ow q Hok Hreg Hq) as (dv' & r & Hs & Hok' & Hsd & Hrsp).
  apply sdev_eqb_core in Heq, Hsd.
  assert (Ha : spec_other (abs_dev dv) ow = spec_other_step (abs_dev dv) ow).
  { unfold spec_other_step. now rewrite (with_status_abs dv (proj1 Hok)). }
  rewrite Ha in Hsd, Hrsp.
  destruct (spec_step_core (abs_dev dv) sd ow Heq Hreg) as [Hr Hc].
  exists dv', r. split; [exact Hs|]. split; [|now rewrite <- Hr].
  split; [exact Hok'|apply sdev_eqb_core; congruence].
Qed.

Definition xrel (x : xstate) (st : sstate) : Prop :=
  units_rel (x_units x) (ss_units st) /\ dev_rel (x_dev x) (ss_dev st).

Definition station_body (b : sreq) : Prop :=
  exists m ow, b = QMsg m /\ owire_of_msg m = Some ow /\ spec_wf m = true /\ station_region ow.

(* a request of C09_e2e_tcp's domain, or a station request of the region in which C04_other_refines is proved *)
Definition req_ok_x (sk : skel) (cfg : scfg) (hosted : list Z) (q : e2e_req) : Prop :=
  req_ok sk cfg hosted q \/
  (0 <= q_tid q < 65536 /\ 0 <= q_pid q < 65536 /\ 0 <= q_uid q < 256 /\ station_body (q_body q) /\
   served sk cfg hosted (q_uid q)).

Lemma wire_obj_fc ow q : obj_of_wire ow = Some q -> exists fc, obj_fc q = Ok fc.
Proof.
  destruct ow; cbn [obj_of_wire]; intros H; try discriminate H; injection H as <-; try (eexists; reflexivity).
  unfold diag_request_cls. repeat (destruct (sub =? _); [eexists; reflexivity|]). eexists; reflexivity.
Qed.

(* what [spec_run_x] folds *)
Definition sstep_x (adu : adu_fn) (single : bool) (st : sstate) (q : e2e_req) : option (sstate * bytes) :=
  match su_get (ss_units st) (spec_key single (q_uid q)) with
  | Some s =>
      match spec_answer_g adu s q with
      | Some (s', b) => Some ({| ss_units := su_set (ss_units st) (spec_key single (q_uid q)) s'; ss_dev := ss_dev st |}, b)
      | None =>
          match spec_other_answer adu (ss_dev st) q with
          | Some (sd', b) => Some ({| ss_units := ss_units st; ss_dev := sd' |}, b)
          | None => None
          end
      end
  | None => None
  end.

Lemma spec_run_x_cons adu single st q t :
  spec_run_x adu single st (q :: t) =
  match sstep_x adu single st q with
  | Some (st1, b) => let '(st2, b2) := spec_run_x adu single st1 t in (st2, b ++ b2)
  | None => spec_run_x adu single st t
  end.
Proof.
  cbn [spec_run_x]. unfold sstep_x. destruct (su_get (ss_units st) _) as [s|]; [|reflexivity].
  destruct (spec_answer_g adu s q) as [[s' b]|]; [reflexivity|].
  destruct (spec_other_answer adu (ss_dev st) q) as [[sd' b]|]; reflexivity.
Qed.

Section OneX.
Variable pk : packer.
Variable adu : adu_fn.
Variable dl : e2e_req -> delivery.
Hypothesis Hpk : pk_ok pk adu dl.
Variable sk : skel.
Variable cfg : scfg.
Hypothesis Hsk : fe_ok sk.

Lemma handle_one_x_data x st q : xrel x st -> req_ok sk cfg (x_keys x) q ->
  exists x' st' b, sstep_x adu (cf_single cfg) st q = Some (st', b) /\
    handle_one_x pk sk cfg x (dl q) = Ok (x', b) /\ xrel x' st' /\ x_keys x' = x_keys x.
Proof.
  intros [Hrel Hdev] Hq.
  destruct (handle_one_spec_g pk adu dl sk cfg (x_units x) (ss_units st) q Hpk Hsk Hrel Hq)
    as (s & s' & b & l' & Hs & Hans & Hone & Hrel' & Hk).
  exists {| x_units := l'; x_dev := x_dev x |},
         {| ss_units := su_set (ss_units st) (spec_key (cf_single cfg) (q_uid q)) s'; ss_dev := ss_dev st |}, b.
  split; [unfold sstep_x; now rewrite Hs, Hans|]. split; [|split; [split; assumption|exact Hk]].
  destruct Hq as (_ & _ & _ & (w & Hbody) & _). destruct (decode_body _ w Hbody) as (o & r & Hdec & _ & Hreq & _).
  unfold handle_one_x. rewrite (proj1 (proj1 Hpk q)), Hdec. cbn [bind].
  now rewrite (data_not_other (x_dev x) o r Hreq), Hone.
Qed.

Lemma handle_one_x_station x st q :
  xrel x st -> wire_ids q -> station_body (q_body q) -> served sk cfg (x_keys x) (q_uid q) ->
  exists x' st' b, sstep_x adu (cf_single cfg) st q = Some (st', b) /\
    handle_one_x pk sk cfg x (dl q) = Ok (x', b) /\ xrel x' st' /\ x_keys x' = x_keys x.
Proof.
  intros [Hrel Hdev] Hids (m & ow & Hbody & How & Hwf & Hreg) Hserved.
  destruct Hpk as [Hdl Hpk']. destruct (Hdl q) as [Hdp Hdu]. pose proof (proj1 Hserved) as Hbc.
  destruct (hosted_unit _ _ _ Hrel (proj2 Hserved)) as (c & s & Ec & Hs & _).
  set (k := spec_key (cf_single cfg) (q_uid q)) in *.
  destruct (decode_station m ow How Hwf) as (qo & Hdec & Hqo).
  destruct (station_step_rel (x_dev x) (ss_dev st) ow qo Hdev Hreg Hqo) as (dv' & r & Hserve & Hdev' & (rfc & Hrfc) & Hex & Hrsp).
  destruct (wire_obj_fc ow qo Hqo) as [fc Hfc].
  exists {| x_units := x_units x; x_dev := dv' |},
         {| ss_units := ss_units st; ss_dev := fst (spec_other_step (ss_dev st) ow) |},
         (match other_rsp_msg (snd (spec_other_step (ss_dev st) ow)) with Some mr => adu q (spec_pdu mr) | None => [] end).
  split.
  { unfold sstep_x, spec_answer_g, spec_other_answer. fold k. rewrite Hs, Hbody. cbn [wreq_of owire_of].
    rewrite (station_not_data m ow How), How. now destruct (spec_other_step (ss_dev st) ow). }
  split; [|split; [split; assumption|reflexivity]].
  unfold handle_one_x. rewrite Hdp, Hbody. cbn [sreq_pdu]. rewrite Hdec. cbn [bind]. rewrite Hserve, Hfc. cbn [bind].
  rewrite Hrfc. cbn [bind].
  (* the skeleton runs the (datastore-neutral) effect once on the addressed unit; so does the control block *)
  erewrite (respond_served sk cfg (x_units x) _ c c (other_summary r rfc) Hsk); cbn [rq_uid rq_exec]; rewrite ?Hdu;
    try eassumption; [|reflexivity].
  fold k. rewrite (u_set_same slavectx _ k c Ec). unfold exec_count.
  change (match sk_bcast sk with Some _ => true | None => false end) with (has_bcast sk).
  rewrite ?Hdu, Hbc, ctx_key_spec. fold k. rewrite Ec. cbn [iter_other]. rewrite Hserve. cbn [other_summary rs_respond].
  destruct (other_rsp_msg (snd (spec_other_step (ss_dev st) ow))) as [mr|].
  - destruct Hrsp as (Hresp & Habs & Hcls & Hlen & Hwfb). rewrite Hresp. cbn [packets_other].
    unfold the_out. cbn [o_code rs_code other_summary].
    change (match r with OExc _ _ code => Some code | _ => None end) with (exc_code_of r). rewrite Hex.
    erewrite (Hpk' q); [|exact Hids|reflexivity|reflexivity|exact Habs|exact Hcls|exact Hlen|exact Hwfb].
    cbn [bind]. now rewrite app_nil_r.
  - now rewrite Hrsp.
Qed.
End OneX.

Lemma handle_one_x_keys pk sk cfg x d x' b : In sk all_fes ->
  handle_one_x pk sk cfg x d = Ok (x', b) -> x_keys x' = x_keys x.
Proof.
  intros Hsk. unfold handle_one_x.
  destruct (py_decode true (d_pdu d)) as [o|e]; cbn [bind]; [|discriminate].
  destruct (e_serve_other (x_dev x) o) as [[dv1 ro]|].
  - destruct (obj_fc o) as [fc|e]; cbn [bind]; [|discriminate].
    destruct (obj_fc ro) as [rfc|e]; cbn [bind]; [|discriminate].
    match goal with |- context [respond slavectx GenServer.code sk cfg (x_units x) ?rq] =>
      pose proof (C10.C10_hosted_set_stable slavectx sk Hsk cfg (x_units x) rq) as Hk;
      destruct (respond slavectx GenServer.code sk cfg (x_units x) rq) as [[l1 outs] exn] end.
    cbn [fst] in Hk. destruct exn; [discriminate|].
    destruct (packets_other pk ro outs); cbn [bind]; [|discriminate].
    destruct (iter_other _ _ _); [|discriminate]. intros H. injection H as <- _. exact Hk.
  - destruct (handle_one pk sk cfg (x_units x) d) as [[l1 b1]|e] eqn:E; cbn [bind]; [|discriminate].
    intros H. injection H as <- _. unfold x_keys. cbn [x_units fst]. exact (handle_one_keys pk sk cfg _ d l1 b1 Hsk E).
Qed.

(* the instance of [item] for the extended domain (serial framings: PDUs of bytes) *)
Definition item_ok_x (k : kind) (sk : skel) (cfg : scfg) (hosted : list Z) (fc : FrBaseA.cfg) (q : e2e_req) : Prop :=
  (req_ok_x sk cfg hosted q /\ (k = KTcp \/ wfb (sreq_pdu (q_body q)) = true)) \/
  (frame_wf k (frame_of q) /\ spec_accepts k fc (q_uid q) = false).

Lemma req_ok_x_served sk cfg hosted q : req_ok_x sk cfg hosted q -> served sk cfg hosted (q_uid q).
Proof. intros [(_ & _ & _ & _ & H)|(_ & _ & _ & _ & H)]; exact H. Qed.

Theorem stream_spec_x k pk adu sk cfg (P : e2e_req -> Prop) hosted :
  pk_ok pk adu (fun q => spec_delivery k (frame_of q)) -> fe_ok sk ->
  (forall q, P q -> req_ok_x sk cfg hosted q) -> forall qs x st,
  x_keys x = hosted -> xrel x st -> Forall (item k (unit_cfg sk cfg hosted) P) qs ->
  exists x', handle_all_x pk sk cfg x (ref_deliveries k (unit_cfg sk cfg hosted) (map frame_of qs))
               = (x', snd (spec_run_x adu (cf_single cfg) st qs), None) /\
             xrel x' (fst (spec_run_x adu (cf_single cfg) st qs)) /\ x_keys x' = hosted.
Proof.
  intros Hpk Hsk HP qs x st Hkeys Hrel Hok.
  apply (stream_sim (handle_one_x pk sk cfg) (handle_all_x pk sk cfg) (fun _ => eq_refl) (fun _ _ _ => eq_refl)
           (sstep_x adu (cf_single cfg)) (spec_run_x adu (cf_single cfg)) (fun _ => eq_refl) (spec_run_x_cons adu (cf_single cfg))
           (fun x st => xrel x st /\ x_keys x = hosted) k (unit_cfg sk cfg hosted) P); [| |now split|exact Hok].
  - intros x1 st1 q [HR Hx] Hq. apply HP in Hq.
    split; [apply hosted_accepted, (req_ok_x_served _ _ _ _ Hq)|]. rewrite <- Hx in Hq.
    destruct Hq as [Hq|(Htid & Hpid & Huid & Hst & Hserved)];
      [destruct (handle_one_x_data pk adu _ Hpk sk cfg Hsk x1 st1 q HR Hq) as (x' & st' & b & H1 & H2 & H3 & H4)
      |destruct (handle_one_x_station pk adu _ Hpk sk cfg Hsk x1 st1 q HR (conj Htid (conj Hpid Huid)) Hst Hserved)
         as (x' & st' & b & H1 & H2 & H3 & H4)];
      exists x', st', b; (repeat split; try assumption; apply H3 || congruence).
  - intros x1 st1 q [[HR _] Hx] Hrej. unfold sstep_x. now rewrite (rejected_not_hosted k sk cfg hosted _ _ _ HR Hx Hrej).
Qed.

Lemma station_pdu_ok b : station_body b -> pdu_ok b.
Proof.
  intros (m & ow & -> & How & Hwf & Hreg). unfold pdu_ok. cbn [sreq_pdu].
  destruct (decode_station m ow How Hwf) as (qo & Hdec & Hqo).
  destruct (wire_obj_fc ow qo Hqo) as [fc Hfc]. split.
  - destruct m; cbn [owire_of_msg] in How; try discriminate How; try (cbn; lia).
    destruct data as [|d [|? ?]]; try discriminate How. cbn [spec_pdu]. rewrite !app_length. cbn. lia.
  - unfold e2e_dec, py_decode_wrapper. now rewrite Hdec, Hfc.
Qed.

Lemma req_ok_x_wire sk cfg hosted q : req_ok_x sk cfg hosted q -> wire_ids q /\ pdu_ok (q_body q).
Proof.
  intros [Hq|(Ht & Hp & Hu & Hst & _)]; [exact (req_ok_wire _ _ _ q Hq)|].
  split; [exact (conj Ht (conj Hp Hu))|exact (station_pdu_ok _ Hst)].
Qed.

Lemma frames_x k sk cfg hosted fc qs : k = KTcp \/ k = KAscii ->
  Forall (item_ok_x k sk cfg hosted fc) qs -> Forall (stream_frame k e2e_dec fc) (map frame_of qs).
Proof.
  intros Hk. apply stream_frames; [exact Hk|]. intros q [Hq Hb]. destruct (req_ok_x_wire _ _ _ q Hq). auto.
Qed.

(* the front-ends of the extended statements: threaded and asyncio (the Twisted _send increments the
   BusMessage counter of the control block: a front-end difference, see finding F-C17-bus-message-counter) *)
Definition tcp_fes_x : list skel := [GenServer.sync_tcp; GenServer.aio_tcp].

Lemma tcp_fes_x_tcp sk : In sk tcp_fes_x -> In sk tcp_fes.
Proof. cbv [tcp_fes_x tcp_fes]. cbn [In]. tauto. Qed.

Lemma run_serial_handle_x {FS} (recv : FrBaseA.cfg -> FS -> bytes -> FS * list delivery * outc) pk sk cfg :
  In sk all_fes -> forall chunks st x st' ds x' b,
  feed (recv (unit_cfg sk cfg (x_keys x))) st (filter nonempty chunks) = (st', ds, true) ->
  handle_all_x pk sk cfg x ds = (x', b, None) ->
  run_serial_g x_keys (handle_all_x pk sk cfg) recv sk cfg st x chunks = result x' b st'.
Proof.
  intros Hsk. eapply (run_serial_feed _ (handle_one_x pk sk cfg)); try reflexivity.
  intros s d s' b. now apply handle_one_x_keys.
Qed.

Lemma xrel_abs x : Forall (fun p => store_ok (snd p)) (x_units x) -> dev_ok (x_dev x) ->
  xrel x {| ss_units := abs_units (x_units x); ss_dev := abs_dev (x_dev x) |}.
Proof. intros Hu Hd. split; [now apply units_rel_abs|]. split; [exact Hd|apply sdev_eqb_refl]. Qed.
