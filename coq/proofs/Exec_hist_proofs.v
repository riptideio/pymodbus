(* Exec_hist_proofs.v — the definitions the statements of Props/C04.v and C05.v use; request histories,
   what an accepted or a rejected request does and the witnesses of the two known defects, all from
   [step_norm] / [step_refines] of Exec_req_proofs.v; at the end, which register-write PDUs decode. *)
From PM.theories Require Import Base Expr Store Exec ExecSpec ExecView.
From PM.proofs Require Import Exec_proofs Exec_req_proofs.
Open Scope string_scope.
Open Scope list_scope.
Open Scope Z_scope.

Definition exec_outcome (o : rsp) : option Z :=
  match vw o with Some (SExc _ code) => Some code | _ => None end.

(* what an accepted write request stores, and where *)
Definition written (s : astate) (w : wreq) : option (tbl * Z * list Z) :=
  match w with
  | WWriteCoil a word => Some (Coils, a, [if word =? 65280 then 1 else 0])
  | WWriteReg a v => Some (Holding, a, [v])
  | WWriteCoils a n _ data => Some (Coils, a, firstn (Z.to_nat n) (bits_of_bytes data))
  | WWriteRegs a n _ data => Some (Holding, a, firstn (Z.to_nat n) (words_of_bytes data))
  | WMask a am om => Some (Holding, a, [mask_result (match cell s Holding a with Some v => v | None => 0 end) am om])
  | WRWM _ _ wa wn _ data => Some (Holding, wa, firstn (Z.to_nat wn) (words_of_bytes data))
  | _ => None
  end.

(* the store of the witnesses: zero mode, 32 coils equal to the parameter, one cell in each other table
   (holding register 0 = 0x12, the current value of the mask-write witness) *)
Definition ctx1 (coil : Z) : slavectx :=
  {| cx_zero := true;
     cx_slots := [("c", 0%nat); ("d", 1%nat); ("h", 2%nat); ("i", 3%nat)];
     cx_blocks := [BSeq {| sb_addr := 0; sb_vals := repeat coil 32; sb_def := 0 |};
                   BSeq {| sb_addr := 0; sb_vals := [0]; sb_def := 0 |};
                   BSeq {| sb_addr := 0; sb_vals := [18]; sb_def := 0 |};
                   BSeq {| sb_addr := 0; sb_vals := [0]; sb_def := 0 |}] |}.

Definition req_of (w : wreq) : req := match decode_attrs w with Ok r => r | Raise _ => req0 0 end.

(* every intermediate store of a history, paired with the response produced from it *)
Fixpoint trace (c : slavectx) (rs : list req) : list (slavectx * rsp * slavectx) :=
  match rs with
  | [] => []
  | r :: t => let '(c1, o) := serve XC std c r in (c, o, c1) :: trace c1 t
  end.

Lemma spec_outcome_aeq s s' w : aeq s s' -> spec_outcome s w = spec_outcome s' w.
Proof.
  intros H. destruct w; cbn [spec_outcome]; try reflexivity;
    repeat match goal with
           | |- context [range_ok s ?t ?a ?n] => rewrite (range_ok_aeq s s' t a n H)
           end; reflexivity.
Qed.

Lemma spec_apply_aeq s s' w : aeq s s' ->
  aeq (fst (spec_apply s w)) (fst (spec_apply s' w)) /\ snd (spec_apply s w) = snd (spec_apply s' w).
Proof.
  intros H. destruct w; cbn [spec_apply fst snd]; rewrite ?(cell_aeq s s' Holding _ H);
    (split; [auto using write_aeq|]); try reflexivity; apply f_equal, read_aeq; auto using write_aeq.
Qed.

Lemma spec_exec_aeq s s' w : aeq s s' ->
  aeq (fst (spec_exec s w)) (fst (spec_exec s' w)) /\ snd (spec_exec s w) = snd (spec_exec s' w).
Proof.
  intros H. unfold spec_exec. rewrite (spec_outcome_aeq s s' w H).
  destruct (spec_outcome s' w); [split; [exact H|reflexivity]|]. apply spec_apply_aeq. exact H.
Qed.

Theorem history_refines : forall ws rs c s,
  inv c -> aeq (abs c) s ->
  Forall2 (fun w r => decode_attrs w = Ok r) ws rs ->
  Forall other_ok ws -> Forall in_region ws ->
  inv (fst (serve_all XC std c rs)) /\
  aeq (abs (fst (serve_all XC std c rs))) (fst (spec_exec_all s ws)) /\
  map vw (snd (serve_all XC std c rs)) = map Some (snd (spec_exec_all s ws)).
Proof.
  intros ws rs c s Hi Ha Hd. revert c s Hi Ha.
  induction Hd as [|w r ws rs Hd1 _ IH]; intros c s Hi Ha Ho Hr; [cbn; auto|].
  apply Forall_cons_iff in Ho as [Ho1 Ho2]. apply Forall_cons_iff in Hr as [Hr1 Hr2].
  destruct (step_refines c w r Hi Hd1 Ho1 Hr1) as (c1 & o & Hs & Hi1 & Ha1 & Hv & _).
  destruct (spec_exec_aeq (abs c) s w Ha) as [Hx1 Hx2].
  cbn [serve_all spec_exec_all]. rewrite Hs. destruct (spec_exec s w) as [s1 o1]. cbn [fst snd] in *.
  specialize (IH c1 s1 Hi1 (aeq_trans _ _ _ Ha1 Hx1) Ho2 Hr2).
  destruct (serve_all XC std c1 rs) as [c2 os]. destruct (spec_exec_all s1 ws) as [s2 os2].
  cbn [fst snd map] in *. rewrite Hv, Hx2. destruct IH as (I1 & I2 & ->). auto.
Qed.

Lemma serve_refines c w r c' o :
  inv c -> decode_attrs w = Ok r -> other_ok w -> in_region w -> serve XC std c r = (c', o) ->
  inv c' /\ aeq (abs c') (fst (spec_exec (abs c) w)) /\ vw o = Some (snd (spec_exec (abs c) w)) /\
  (forall fc code, o = Exc fc code -> c' = c).
Proof.
  intros Hi Hd Ho Hr Hs. destruct (step_refines c w r Hi Hd Ho Hr) as (c1 & o1 & Hs1 & H).
  rewrite Hs in Hs1. injection Hs1 as <- <-. exact H.
Qed.

Lemma serve_accepted c w r c' o :
  inv c -> decode_attrs w = Ok r -> other_ok w -> in_region w -> serve XC std c r = (c', o) ->
  spec_outcome (abs c) w = None ->
  inv c' /\ aeq (abs c') (fst (spec_apply (abs c) w)) /\ vw o = Some (snd (spec_apply (abs c) w)).
Proof.
  intros Hi Hd Ho Hr Hs E. destruct (serve_refines c w r c' o Hi Hd Ho Hr Hs) as (Hi' & Ha & Hv & _).
  unfold spec_exec in Ha, Hv. rewrite E in Ha, Hv. auto.
Qed.

Lemma vw_exc_inv o f c : vw o = Some (SExc f c) -> o = Exc f c.
Proof.
  destruct o as [cls args|fc cd]; unfold vw, view; intros Hv.
  - destruct (assoc_str (x_resp_fc XC) cls); [|discriminate].
    destruct args as [|[?|?] [|[?|?] [|[?|?] [|? ?]]]]; try discriminate.
    all: repeat match type of Hv with context [if ?b then _ else _] => destruct b end; try discriminate.
  - injection Hv as -> ->. reflexivity.
Qed.

Theorem classify c w r c' o :
  inv c -> decode_attrs w = Ok r -> other_ok w -> in_region w ->
  serve XC std c r = (c', o) ->
  exec_outcome o = spec_outcome (abs c) w /\
  (forall code, spec_outcome (abs c) w = Some code -> o = Exc (Z.lor (wfc w) 128) code /\ c' = c).
Proof.
  intros Hi Hd Ho Hr Hs. destruct (serve_refines c w r c' o Hi Hd Ho Hr Hs) as (_ & _ & Hv & Hf).
  unfold exec_outcome. rewrite Hv. unfold spec_exec in *.
  destruct (spec_outcome (abs c) w) as [code|] eqn:E; cbn [snd] in *.
  - split; [reflexivity|]. intros code' [= <-]. apply vw_exc_inv in Hv. split; [exact Hv|exact (Hf _ _ Hv)].
  - split; [|discriminate]. destruct w; try discriminate E; reflexivity.
Qed.

Theorem exception_frame c w r c' fc code :
  inv c -> decode_attrs w = Ok r -> other_ok w ->
  serve XC std c r = (c', Exc fc code) -> c' = c.
Proof.
  intros Hi Hd Ho Hs.
  destruct (step_norm c w r Hi Hd Ho) as (c1 & o1 & Hs1 & _ & _ & _ & Hf).
  rewrite Hs in Hs1. injection Hs1 as <- <-. eapply Hf. reflexivity.
Qed.

Lemma spec_apply_state s w :
  fst (spec_apply s w) = match written s w with Some (t, a, vs) => write s t a vs | None => s end.
Proof. destruct w; reflexivity. Qed.

Lemma outcome_none (g3 g2 : bool) :
  (if g3 then Some 3 else if g2 then Some 2 else @None Z) = None -> g3 = false /\ g2 = false.
Proof. destruct g3, g2; intros H; try discriminate H; auto. Qed.

Lemma rwm_accepted s ra rn wa wn wbc data r :
  spec_outcome s (WRWM ra rn wa wn wbc data) = None -> decode_attrs (WRWM ra rn wa wn wbc data) = Ok r ->
  let ws := firstn (Z.to_nat wn) (words_of_bytes data) in
  Z.of_nat (length ws) = wn /\ ws <> [] /\ range_ok s Holding wa wn = true.
Proof.
  cbn [spec_outcome decode_attrs]. intros E Hd. apply outcome_none in E as [E3 E2].
  apply orb_false_iff in E3 as [G Eb]. apply orb_false_iff in G as [_ G].
  apply negb_false_iff, in_range_true in G. apply negb_false_iff, Z.eqb_eq in Eb. subst wbc.
  apply orb_false_iff in E2 as [E2 _]. apply negb_false_iff in E2. rewrite half_up in Hd.
  destruct (take_words (Z.to_nat wn) data) as [v|] eqn:Et; [|discriminate].
  destruct (decoded_words _ _ _ Et (proj1 G)) as (<- & Hn & Hne). auto.
Qed.

Lemma accepted_range_ok c w r t a vs :
  decode_attrs w = Ok r -> in_region w ->
  spec_outcome (abs c) w = None -> written (abs c) w = Some (t, a, vs) ->
  range_ok (abs c) t a (Z.of_nat (length vs)) = true /\ vs <> [].
Proof.
  intros Hd Hr E Hw.
  destruct w; cbn [written] in Hw; try discriminate; injection Hw as <- <- <-.
  6: { (* FC23 *) destruct (rwm_accepted _ _ _ _ _ _ _ _ E Hd) as (-> & Hne & R). auto. }
  all: cbn [spec_outcome decode_attrs in_region] in E, Hd, Hr.
  all: apply outcome_none in E as [E3 E2]; apply negb_false_iff in E2.
  - (* FC5 *) split; [exact E2|discriminate].
  - (* FC6 *) split; [exact E2|discriminate].
  - (* FC15 *)
    apply orb_false_iff in E3 as [G _]. apply negb_false_iff, in_range_true in G.
    assert (Hl : Z.of_nat (length (firstn (Z.to_nat qty) (bits_of_bytes data))) = qty)
      by (rewrite firstn_length, bits_of_bytes_length; lia).
    rewrite Hl. split; [exact E2|]. intros Hnil. rewrite Hnil in Hl. cbn [length] in Hl. lia.
  - (* FC16 *)
    apply orb_false_iff in E3 as [G _]. apply negb_false_iff, in_range_true in G.
    destruct (take_words (Z.to_nat qty) data) as [v|] eqn:Et; [|discriminate].
    destruct (decoded_words _ _ _ Et (proj1 G)) as (<- & -> & Hne). auto.
  - (* FC22 *) split; [exact E2|discriminate].
Qed.

(* validate and getValues never change the store *)
Lemma run_no_set sc : forallb (fun s => match s with SSet _ _ _ => false | _ => true end) sc = true ->
  forall r c sl ll, fst (run XC std sc r c sl ll) = c.
Proof.
  induction sc as [|s k IH]; intros Hn r c sl ll; [reflexivity|].
  cbn [forallb] in Hn. apply andb_true_iff in Hn as [Hs Hk]. specialize (IH Hk r c).
  destruct s; try discriminate Hs; cbn [run std std_ops o_validate o_get].
  - apply IH.
  - destruct (beval _ _); [reflexivity|apply IH].
  - destruct (cx_validate _ _ _ _ _) as [[|]|]; [apply IH|reflexivity|reflexivity].
  - destruct (cx_get _ _ _ _ _); [apply IH|reflexivity].
  - destruct (cx_get _ _ _ _ _) as [[|h l]|]; [reflexivity|apply IH|reflexivity].
  - destruct (eval_rargs _ _ _ _); reflexivity.
Qed.

Lemma read_keeps_store c t a n r c' o :
  decode_attrs (WRead t a n) = Ok r -> serve XC std c r = (c', o) -> c' = c.
Proof.
  intros [= <-]. unfold serve, run_script. cbn [r_fc]. destruct (dispatch_read t) as (req & rsp & -> & _).
  destruct (run XC std _ _ c [] []) as [st out] eqn:E.
  apply (f_equal fst) in E. rewrite run_no_set in E by reflexivity.
  destruct out; intros Hq; injection Hq as <- _; symmetry; exact E.
Qed.

(* the limit in the statement is [read_lim t] *)
Theorem read_returns_latest_write c w r c1 o1 t a vs rr c2 o2 :
  inv c -> decode_attrs w = Ok r -> other_ok w -> in_region w ->
  serve XC std c r = (c1, o1) ->
  spec_outcome (abs c) w = None -> written (abs c) w = Some (t, a, vs) ->
  in_range 1 (Z.of_nat (length vs)) (match t with Coils | Discrete => 2000 | _ => 125 end) = true ->
  decode_attrs (WRead t a (Z.of_nat (length vs))) = Ok rr ->
  serve XC std c1 rr = (c2, o2) ->
  c2 = c1 /\ vw o2 = Some (SRead (read_fc t) vs).
Proof.
  intros Hi Hd Ho Hr Hs E Hw Hlim Hd2 Hs2. split; [exact (read_keeps_store _ _ _ _ _ _ _ Hd2 Hs2)|].
  destruct (serve_accepted c w r c1 o1 Hi Hd Ho Hr Hs E) as (Hi1 & Ha & _).
  rewrite spec_apply_state, Hw in Ha.
  destruct (accepted_range_ok c w r t a vs Hd Hr E Hw) as [Hok Hne].
  destruct (serve_accepted c1 _ rr c2 o2 Hi1 Hd2 I I Hs2) as (_ & _ & Hv).
  { cbn [spec_outcome]. rewrite Hlim. cbn [negb].
    rewrite (range_ok_aeq _ _ t a _ Ha), (range_ok_write (abs c) t a vs t a _ Hok), Hok. reflexivity. }
  cbn [spec_apply snd] in Hv. rewrite (read_aeq _ _ t a _ Ha), read_write_same in Hv. exact Hv.
Qed.

Theorem rwm_write_before_read c ra rn wa wn wbc data r c' o :
  inv c -> decode_attrs (WRWM ra rn wa wn wbc data) = Ok r ->
  serve XC std c r = (c', o) ->
  spec_outcome (abs c) (WRWM ra rn wa wn wbc data) = None ->
  let ws := firstn (Z.to_nat wn) (words_of_bytes data) in
  vw o = Some (SRead 23 (read (write (abs c) Holding wa ws) Holding ra rn)) /\
  aeq (abs c') (write (abs c) Holding wa ws).
Proof.
  intros Hi Hd Hs E ws. destruct (serve_accepted c _ r c' o Hi Hd I I Hs E) as (_ & Ha & Hv). auto.
Qed.

Lemma ctx1_inv v : inv (ctx1 v).
Proof. intros t; destruct t; eexists; (split; [reflexivity|cbn; lia]). Qed.

Theorem fc5_bad_word_accepted :
  let w := WWriteCoil 0 4660 in
  decode_attrs w = Ok (req_of w) /\
  (let '(c', o) := serve XC std (ctx1 1) (req_of w) in
   vw o = Some (SEcho1 5 0 0) /\ cx_get SC c' 1 0 1 = Ok [0]) /\
  snd (spec_exec (abs (ctx1 1)) w) = SExc 133 3.
Proof. vm_compute. repeat split. Qed.

Lemma response_refutes c w r x y :
  inv c -> decode_attrs w = Ok r -> other_ok w ->
  vw (snd (serve XC std c r)) = Some x -> snd (spec_exec (abs c) w) = y -> x <> y ->
  exists c w r, inv c /\ decode_attrs w = Ok r /\ other_ok w /\ ~ step_ok c r w.
Proof.
  intros Hi Hd Ho Hv Hx Hne. exists c, w, r. repeat split; try assumption.
  intros (c' & o & Hs & _ & _ & Hv' & _). rewrite Hs in Hv. cbn [snd] in Hv.
  rewrite Hv, Hx in Hv'. congruence.
Qed.

Theorem fc5_refuted :
  exists c w r, inv c /\ decode_attrs w = Ok r /\ other_ok w /\ ~ step_ok c r w.
Proof.
  destruct fc5_bad_word_accepted as (Hd & Hs & Hx).
  refine (response_refutes _ _ _ _ _ (ctx1_inv 1) Hd I _ Hx _); [destruct (serve XC std _ _); apply Hs|discriminate].
Qed.

Theorem fc15_short_data_accepted :
  let w := WWriteCoils 3 20 2 [255; 255] in
  decode_attrs w = Ok (req_of w) /\
  (let '(c', o) := serve XC std (ctx1 0) (req_of w) in
   vw o = Some (SEchoN 15 3 16) /\ cx_get SC c' 1 2 18 = Ok [0; 1; 1; 1; 1; 1; 1; 1; 1; 1; 1; 1; 1; 1; 1; 1; 1; 0]) /\
  snd (spec_exec (abs (ctx1 0)) w) = SExc 143 3.
Proof. vm_compute. repeat split. Qed.

(* mask write: cur 0x12, and 0xF2, or 0x25 -> 0x17 *)
Example mask_write_witness :
  let w := WMask 0 242 37 in
  let '(c', o) := serve XC std (ctx1 0) (req_of w) in
  cx_get SC c' 3 0 1 = Ok [23] /\ vw o = Some (SMask 0 242 37).
Proof. vm_compute. split; reflexivity. Qed.

Lemma step_inv c w r : inv c -> decode_attrs w = Ok r -> other_ok w -> inv (fst (serve XC std c r)).
Proof.
  intros Hi Hd Ho. destruct (step_norm c w r Hi Hd Ho) as (c1 & o & Hs & Hi1 & _). rewrite Hs. exact Hi1.
Qed.

Lemma bind_ok_iff {A B} (m : res A) (f : A -> B) :
  (exists r, (do x <- m; Ok (f x)) = Ok r) <-> exists x, m = Ok x.
Proof. destruct m; cbn [bind]; split; intros [x H]; try discriminate H; eauto. Qed.

Lemma take_words_ok_iff n data : (exists vs, take_words n data = Ok vs) <-> (2 * n <= length data)%nat.
Proof.
  revert data. induction n as [|n IH]; intros data.
  - cbn. split; [intros _; lia|intros _; eexists; reflexivity].
  - cbn [take_words]. destruct data as [|hi [|lo t]].
    + split; [intros [vs H]; discriminate H|cbn; lia].
    + split; [intros [vs H]; discriminate H|cbn; lia].
    + specialize (IH t). split.
      * intros [vs H]. destruct (take_words n t) as [r|] eqn:E; cbn [bind] in H; [|discriminate].
        assert (2 * n <= length t)%nat by (apply IH; eexists; reflexivity). cbn [length]. lia.
      * intros Hl. cbn [length] in Hl. destruct (proj2 IH ltac:(lia)) as [r Hr]. rewrite Hr. eexists. reflexivity.
Qed.
