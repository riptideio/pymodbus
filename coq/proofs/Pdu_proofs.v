(* Pdu_proofs.v — encode (C01): bytes([fc]) + encode() of an object that stands for a message [m]
   is the specification's PDU of [m] when every field of [m] fits its wire width, and struct.error
   otherwise ([encode_spec]).  Every encoder is a chain of struct.pack calls, each of which either
   yields the specification's bytes of its fields or raises: [guard]. *)
From PM.theories Require Import Base Struct PduCls PduSpec Pdu CorrPdu.
From PM.Generated Require Import GenPdu.
From PM.proofs Require Import Base_proofs Struct_proofs Pdu_bits_proofs.
From Coq Require Import ZifyBool.
Open Scope string_scope.
Open Scope list_scope.
Open Scope Z_scope.
Ltac Zify.zify_post_hook ::= Z.to_euclidean_division_equations.

Definition guard {A} (b : bool) (x : A) : res A := if b then Ok x else Raise StructError.

Lemma guard_bind {A B} (b : bool) (x : A) (k : A -> res B) : bind (guard b x) k = if b then k x else Raise StructError.
Proof. destruct b; reflexivity. Qed.

Lemma guard_fold {A} (b : bool) (x : A) : (if b then Ok x else Raise StructError) = guard b x.
Proof. reflexivity. Qed.

Lemma guard_if {A} (b c : bool) (x : A) : (if b then guard c x else Raise StructError) = guard (b && c) x.
Proof. destruct b; reflexivity. Qed.

Lemma guard_eq {A} (b b' : bool) (x x' : A) : b = b' -> x = x' -> guard b x = guard b' x'.
Proof. now intros -> ->. Qed.

(* the methods that also assign attributes match on the result instead of binding it *)
Lemma guard_match {A B S} (b : bool) (x : A) (k : A -> res B * S) (s : S) :
  fst (match guard b x with Ok p => k p | Raise e => (Raise e, s) end) = if b then fst (k x) else Raise StructError.
Proof. destruct b; reflexivity. Qed.

(* a chain of binds over guards becomes one guard *)
Ltac guards := rewrite ?guard_bind, ?guard_match; cbn [fst]; rewrite ?guard_fold, ?guard_if.

(* the PDU layer packs only '>H' and '>B' fields: everything below is under [forallb is_HB fmt] *)
Definition fits (c : fmtc) (v : Z) : bool := match c with FH => is_u16 v | FB => is_u8 v | _ => false end.
Definition field (c : fmtc) (v : Z) : bytes := match c with FH => u16 v | _ => u8 v end.
Definition is_HB (c : fmtc) : bool := match c with FH | FB => true | _ => false end.

Fixpoint all_fit (fmt : list fmtc) (vs : list Z) : bool :=
  match fmt, vs with
  | [], [] => true
  | c :: fmt', v :: vs' => fits c v && all_fit fmt' vs'
  | _, _ => false
  end.
Fixpoint fields (fmt : list fmtc) (vs : list Z) : bytes :=
  match fmt, vs with
  | c :: fmt', v :: vs' => field c v ++ fields fmt' vs'
  | _, _ => []
  end.

Lemma pack1_field c v : is_HB c = true -> pack1 true c v = guard (fits c v) (field c v).
Proof.
  intros H. unfold pack1, in_range, to_unsigned.
  destruct c; try discriminate H; cbn [fsigned fwidth fits field].
  - (* FB *) change (pow256 1) with 256. fold (is_u8 v). destruct (is_u8 v) eqn:E; [|reflexivity].
    unfold is_u8 in E. replace (v <? 0) with false by lia. cbn [le_bytes rev app guard]. unfold u8.
    now replace (v mod 256) with v by lia.
  - (* FH *) change (pow256 2) with 65536. fold (is_u16 v). destruct (is_u16 v) eqn:E; [|reflexivity].
    unfold is_u16 in E. replace (v <? 0) with false by lia. cbn [le_bytes rev app guard]. unfold u16.
    now replace (v / 256 mod 256) with (v / 256) by lia.
Qed.

Lemma pack_cons big c fs v vs :
  pack big (c :: fs) (v :: vs) = (do b <- pack1 big c v; do r <- pack big fs vs; Ok (b ++ r)).
Proof. reflexivity. Qed.

Lemma pk_fields fmt : forall vs, forallb is_HB fmt = true -> pk fmt vs = guard (all_fit fmt vs) (fields fmt vs).
Proof.
  unfold pk. induction fmt as [|c fmt IH]; intros [|v vs] H; try reflexivity.
  cbn [forallb] in H. apply andb_true_iff in H as [Hc H].
  rewrite pack_cons, pack1_field, IH by assumption. cbn [all_fit fields]. now guards.
Qed.

(* [data] by an equation: rewrite does not match [fields fmt vs] against the specification's [u16 a ++ u8 b ++ ...] *)
Lemma upk_fields fmt vs data :
  data = fields fmt vs -> forallb is_HB fmt = true -> all_fit fmt vs = true -> upk fmt data = Ok vs.
Proof. intros -> H Hf. apply unpack_pack. fold (pk fmt vs). now rewrite pk_fields, Hf. Qed.

Lemma pk_fields_inv fmt vs h : forallb is_HB fmt = true -> pk fmt vs = Ok h -> all_fit fmt vs = true /\ h = fields fmt vs.
Proof. intros Hf. rewrite pk_fields by exact Hf. destruct (all_fit fmt vs); [intros [= <-]; now split|discriminate]. Qed.

Lemma enc_words_guard l : enc_words l = guard (all_u16 l) (words l).
Proof.
  induction l as [|v t IH]; [reflexivity|].
  cbn [enc_words]. rewrite pk_fields, IH by reflexivity. guards.
  cbn [all_fit fits fields field all_u16 forallb]. now rewrite andb_true_r, app_nil_r.
Qed.

Lemma enc_u8s_guard l : enc_u8s l = guard (all_u8 l) (flat_map u8 l).
Proof.
  induction l as [|v t IH]; [reflexivity|].
  cbn [enc_u8s]. rewrite pk_fields, IH by reflexivity. guards.
  cbn [all_fit fits fields field all_u8 forallb]. now rewrite andb_true_r, app_nil_r.
Qed.

Ltac split_andb H :=
  repeat match type of H with
         | (_ && _) = true => let H1 := fresh H in apply andb_true_iff in H as [H H1]; try split_andb H1
         end.

(* width tests and lengths to lia; an equal condition on list elements at the end of both sides is peeled off first *)
Ltac widths :=
  cbn [all_fit fits spec_wf] in *; unfold is_u16, is_u8, bit_byte_count, zlen, len in *; cbn [length] in *;
  first [lia | rewrite ?andb_assoc; apply (f_equal2 andb); [lia|reflexivity]].

Lemma len_app {A} (a b : list A) : len (a ++ b) = len a + len b.
Proof. unfold len. rewrite app_length. lia. Qed.

Lemma words_len l : len (words l) = 2 * len l.
Proof. induction l as [|v t IH]; [reflexivity|]. unfold words in *. cbn [flat_map]. rewrite len_app, IH. change (len (u16 v)) with 2. widths. Qed.

Lemma abs_inv o m : abs o = Some m -> abs_raw o = Some m /\ spec_wf m = true.
Proof.
  unfold abs. destruct (abs_raw o) as [m'|]; [|discriminate].
  destruct (spec_wf m') eqn:E; [|discriminate]. intros H. injection H as <-. split; [reflexivity|exact E].
Qed.

(* closed look-ups in the generated tables (the class is a constructor) are replaced by their value *)
Ltac tab :=
  repeat match goal with
  | |- context [fc_of ?c] => is_constructor c; let x := eval vm_compute in (fc_of c) in change (fc_of c) with x
  | |- context [assoc_cls ?c enc_layouts] => is_constructor c; let x := eval vm_compute in (assoc_cls c enc_layouts) in change (assoc_cls c enc_layouts) with x
  | |- context [assoc_cls ?c dec_layouts] => is_constructor c; let x := eval vm_compute in (assoc_cls c dec_layouts) in change (assoc_cls c dec_layouts) with x
  | |- context [cls_eqb ?c ?d] => is_constructor c; is_constructor d; let x := eval vm_compute in (cls_eqb c d) in change (cls_eqb c d) with x
  | |- context [is_request ?c] => is_constructor c; let x := eval vm_compute in (is_request c) in change (is_request c) with x
  end.

Lemma cls_idx_nth c : nth (N.to_nat (cls_idx c)) all_cls ExceptionResponse = c.
Proof. destruct c; reflexivity. Qed.

Lemma cls_eqb_true c d : cls_eqb c d = true -> c = d.
Proof. intros H. apply N.eqb_eq in H. now rewrite <- (cls_idx_nth c), H, cls_idx_nth. Qed.

Lemma cls_eqb_refl c : cls_eqb c c = true.
Proof. unfold cls_eqb. apply N.eqb_refl. Qed.

Lemma py_pdu_guard o fc b x : obj_fc o = Ok fc -> 0 <= fc < 256 -> py_encode o = guard b x ->
  py_pdu o = guard b (Z.to_N fc :: x).
Proof.
  intros Hf Hr He. unfold py_pdu, fc_byte. rewrite Hf, He. cbn [bind].
  replace ((0 <=? fc) && (fc <? 256)) with true by lia. now destruct b.
Qed.

Lemma enc_fixed_guard c a fmt names vs :
  assoc_cls c enc_layouts = Some (true, fmt, names) -> forallb is_HB fmt = true -> attr_values a names = Ok vs ->
  py_encode (OFixed c a) = guard (all_fit fmt vs) (fields fmt vs).
Proof. intros Hl Hf Hv. unfold py_encode, encode_st, fst, enc_fixed. rewrite Hl, Hv. apply pk_fields, Hf. Qed.

Lemma at2_attrs a x y K m : at2 a x y K = Some m -> exists u v, attr_values a [x; y] = Ok [u; v] /\ m = K u v.
Proof.
  unfold at2. cbn [attr_values]. destruct (assoc_str x a) as [u|]; [|discriminate].
  destruct (assoc_str y a) as [v|]; [|discriminate]. intros H. injection H as <-. now exists u, v.
Qed.

Lemma at3_attrs a x y z K m : at3 a x y z K = Some m ->
  exists u v w, attr_values a [x; y; z] = Ok [u; v; w] /\ m = K u v w.
Proof.
  unfold at3. cbn [attr_values]. destruct (assoc_str x a) as [u|]; [|discriminate].
  destruct (assoc_str y a) as [v|]; [|discriminate]. destruct (assoc_str z a) as [w|]; [|discriminate].
  intros H. injection H as <-. now exists u, v, w.
Qed.

Lemma at1_attrs a x (K : Z -> msg) m :
  match assoc_str x a with Some v => Some (K v) | None => None end = Some m ->
  exists u, attr_values a [x] = Ok [u] /\ m = K u.
Proof. cbn [attr_values]. destruct (assoc_str x a) as [u|]; [|discriminate]. intros H. injection H as <-. now exists u. Qed.

Lemma devid_attrs a m :
  match assoc_str "sub_function_code" a with
  | Some s => if s =? 14 then at2 a "read_code" "object_id" MReadDevIdReq else None
  | None => None
  end = Some m ->
  exists u v, attr_values a ["sub_function_code"; "read_code"; "object_id"] = Ok [14; u; v] /\ m = MReadDevIdReq u v.
Proof.
  intros H. destruct (assoc_str "sub_function_code" a) as [s|] eqn:Es; [|discriminate H].
  destruct (Z.eqb_spec s 14) as [->|]; [|discriminate H]. apply at2_attrs in H as (u & v & Ev & ->).
  exists u, v. cbn [attr_values] in *. now rewrite Es, Ev.
Qed.

Lemma coil_word_u16 v : is_u16 (coil_word v) = true.
Proof. destruct v; reflexivity. Qed.
Lemma coil_word_spec v : u16 (coil_word v) = on_word v.
Proof. destruct v; reflexivity. Qed.

(* the data words [ws] are given: both sides unfold to the same guard *)
Ltac diag_words H :=
  injection H as <-; (split; [reflexivity|]); (split; [reflexivity|]);
  rewrite ?pk_fields, ?enc_words_guard by reflexivity; guards;
  cbn [all_fit fits fields field all_u16 forallb words flat_map]; rewrite ?andb_true_r, ?app_nil_r; reflexivity.

Lemma enc_diag_guard c sub msg m : abs_raw (ODiag c sub msg) = Some m ->
  exists ws, m = (if is_request c then MDiagReq sub ws else MDiagRsp sub ws) /\ fc_of c = Some 8 /\
             enc_diag c sub msg = guard (is_u16 sub && all_u16 ws) (u16 sub ++ words ws).
Proof.
  cbn [abs_raw]. destruct (fc_of c) as [fc|]; [|discriminate]. cbn [option_eqb].
  destruct (Z.eqb_spec fc 8) as [->|]; [|discriminate]. unfold enc_diag.
  assert (Hg : is_request c = false -> cls_eqb c GetClearModbusPlusRequest = false).
  { intros Hr. destruct (cls_eqb c GetClearModbusPlusRequest) eqn:E; [|reflexivity]. apply cls_eqb_true in E. now subst c. }
  intros H. destruct msg as [|v|l|l|b].
  - (* DNone *) destruct (cls_eqb c GetClearModbusPlusRequest); [discriminate H|]. exists []. diag_words H.
  - (* DInt *) exists [v]. destruct (cls_eqb c GetClearModbusPlusRequest); diag_words H.
  - (* DList *) destruct (cls_eqb c GetClearModbusPlusRequest); [discriminate H|]. exists l. diag_words H.
  - (* DTuple: responses only *) destruct (is_request c); [discriminate H|]. rewrite (Hg eq_refl). exists l. diag_words H.
  - (* DBytes *) discriminate H.
Qed.

Lemma u16_rd_be16 h l : (l < 256)%N -> u16 (rd_be16 h l) = [h; l].
Proof.
  intros Hl. unfold u16, rd_be16.
  replace ((Z.of_N h * 256 + Z.of_N l) / 256) with (Z.of_N h) by lia.
  replace ((Z.of_N h * 256 + Z.of_N l) mod 256) with (Z.of_N l) by lia.
  now rewrite !N2Z.id.
Qed.

Lemma rd_be16_is_u16 h l : (h < 256)%N -> (l < 256)%N -> is_u16 (rd_be16 h l) = true.
Proof. intros Hh Hl. unfold is_u16, rd_be16. lia. Qed.

Lemma rd_be16_of_u16 v : is_u16 v = true -> rd_be16 (Z.to_N (v / 256)) (Z.to_N (v mod 256)) = v.
Proof. intros H. unfold is_u16 in H. unfold rd_be16. rewrite !Z2N.id by lia. lia. Qed.

Lemma words_of_bytes_spec : forall ws b, wfb b = true -> words_of_bytes b = Some ws ->
  words ws = b /\ 2 * len ws = len b /\ all_u16 ws = true.
Proof.
  induction ws as [|w ws IH]; intros b Hb H.
  - destruct b as [|h [|l t]]; cbn in H; try discriminate H; [repeat split|].
    destruct (words_of_bytes t); discriminate H.
  - destruct b as [|h [|l t]]; cbn [words_of_bytes] in H; try discriminate H.
    destruct (words_of_bytes t) as [r|] eqn:E; [|discriminate H]. injection H as <- <-.
    apply wfb_cons in Hb as [Hh [Hl Ht]%wfb_cons].
    destruct (IH t Ht E) as (H1 & H2 & H3). repeat split.
    + unfold words in *. cbn [flat_map]. rewrite H1, u16_rd_be16 by assumption. reflexivity.
    + unfold len in *. cbn [length]. lia.
    + cbn [all_u16 forallb]. fold (all_u16 r). rewrite H3, rd_be16_is_u16 by assumption. reflexivity.
Qed.

(* names for anonymous functions of CorrPdu.abs_raw (convertible; folded where needed) *)
Definition rs_sub_read (r : frec) : sub_read := {| sr_file := fr_file r; sr_record := fr_recno r; sr_length := fr_len r |}.

Lemma enc_read_subreqs_guard rs :
  enc_read_subreqs rs = guard (forallb sub_read_wf (map rs_sub_read rs)) (flat_map sub_read_bytes (map rs_sub_read rs)).
Proof.
  induction rs as [|r t IH]; [reflexivity|].
  cbn [enc_read_subreqs]. rewrite pk_fields, IH by reflexivity. guards.
  apply guard_eq; cbn [map forallb flat_map]; [f_equal; unfold sub_read_wf; cbn; widths|].
  reflexivity.
Qed.

Definition write_rec_ok (r : frec) : bool := (fr_ref r =? 6) && (fr_len r * 2 =? zlen (fr_data r)) && wfb (fr_data r).
Definition rs_sub_write (r : frec) : option sub_write :=
  match words_of_bytes (fr_data r) with
  | Some ws => Some {| sw_file := fr_file r; sw_record := fr_recno r; sw_data := ws |}
  | None => None
  end.

Lemma enc_write_subs_guard : forall rs ss,
  forallb write_rec_ok rs = true -> opt_map rs_sub_write rs = Some ss ->
  enc_write_subs rs = guard (forallb sub_write_wf ss) (flat_map sub_write_bytes ss) /\
  Pdu.zsum (map (fun r => fr_len r * 2 + 7) rs) = PduSpec.zsum (map sub_write_size ss).
Proof.
  induction rs as [|r t IH]; intros ss Hc Ho.
  - cbn in Ho. injection Ho as <-. split; reflexivity.
  - cbn [opt_map] in Ho. unfold rs_sub_write at 1 in Ho.
    destruct (words_of_bytes (fr_data r)) as [ws|] eqn:Ew; [|discriminate Ho].
    destruct (opt_map rs_sub_write t) as [st|]; [|discriminate Ho]. injection Ho as <-.
    cbn [forallb] in Hc. apply andb_true_iff in Hc as [[[_ Hrl]%andb_true_iff Hrw]%andb_true_iff Hct].
    destruct (words_of_bytes_spec ws (fr_data r) Hrw Ew) as (H1 & H2 & H3).
    destruct (IH st Hct eq_refl) as (IH1 & IH2).
    assert (Hlen : fr_len r = len ws) by widths.
    split.
    + cbn [enc_write_subs]. rewrite pk_fields, IH1 by reflexivity. guards.
      apply guard_eq; cbn [forallb flat_map]; [f_equal; unfold sub_write_wf; cbn [sw_file sw_record sw_data]; rewrite H3, Hlen; widths|].
      now rewrite <- H1, Hlen.
    + cbn [map Pdu.zsum PduSpec.zsum fold_right]. fold (Pdu.zsum (map (fun r => fr_len r * 2 + 7) t)).
      fold (PduSpec.zsum (map sub_write_size st)). rewrite IH2, Hlen. unfold sub_write_size. cbn [sw_data]. lia.
Qed.

Definition item_size (kv : Z * bytes) : Z := 2 + zlen (snd kv).

Lemma zsum_item_size_nonneg items : 0 <= Pdu.zsum (map item_size items).
Proof.
  induction items as [|x t IH]; cbn [map Pdu.zsum fold_right]; [lia|].
  fold (Pdu.zsum (map item_size t)). unfold item_size at 1, zlen. lia.
Qed.

Lemma objects_length objs : (length objs <= length (flat_map object_bytes objs))%nat.
Proof.
  induction objs as [|o t IH]; [reflexivity|]. cbn [flat_map length]. rewrite app_length.
  unfold object_bytes at 1. rewrite !app_length. cbn [u8 length]. lia.
Qed.

(* [object_wf] also asks for real bytes, which _encode_object does not look at *)
Lemma mei_objs_guard : forall items space nobj acc,
  Pdu.zsum (map item_size items) < space -> forallb (fun kv : Z * bytes => wfb (snd kv)) items = true ->
  mei_objs items space nobj acc =
  guard (forallb object_wf items)
        (acc ++ flat_map object_bytes items, space - Pdu.zsum (map item_size items), nobj + len items, None).
Proof.
  induction items as [|[oid d] t IH]; intros space nobj acc Hs Hp.
  - cbn [mei_objs flat_map map Pdu.zsum fold_right forallb guard]. unfold len. cbn [length Z.of_nat].
    now rewrite app_nil_r, Z.sub_0_r, Z.add_0_r.
  - cbn [map Pdu.zsum fold_right] in Hs |- *. fold (Pdu.zsum (map item_size t)) in Hs |- *.
    pose proof (zsum_item_size_nonneg t) as Hn. unfold item_size at 1 in Hs. unfold item_size at 1. cbn [snd] in *.
    cbn [forallb] in Hp. apply andb_true_iff in Hp as [Hd Hp]. cbn [snd] in Hd.
    cbn [mei_objs]. replace (space - (2 + zlen d) <=? 0) with false by lia.
    rewrite pk_fields, guard_bind, IH by (reflexivity || assumption || lia). guards.
    apply guard_eq; cbn [forallb flat_map]; [f_equal; unfold object_wf; cbn [fst snd]; rewrite Hd; widths|].
    replace (space - (2 + zlen d) - Pdu.zsum (map item_size t)) with (space - (2 + zlen d + Pdu.zsum (map item_size t))) by lia.
    replace (nobj + 1 + len t) with (nobj + len ((oid, d) :: t)) by widths.
    unfold object_bytes at 1. cbn [fst snd fields field]. now rewrite <- !app_assoc.
Qed.

Lemma py_pdu_spec o fc b x m : obj_fc o = Ok fc -> 0 <= fc < 256 -> py_encode o = guard b x ->
  b = spec_wf m -> Z.to_N fc :: x = spec_pdu m -> py_pdu o = guard (spec_wf m) (spec_pdu m).
Proof. intros Hf Hr He <- <-. now apply py_pdu_guard. Qed.

(* an encoder as one guard *)
Ltac enc :=
  unfold py_encode, encode_st, int2byte; tab; cbn [fst];
  rewrite ?pk_fields, ?enc_words_guard, ?enc_u8s_guard, ?enc_read_subreqs_guard by reflexivity; guards.

Theorem encode_spec o m :
  mem_cls (class_of o) conforming_encode = true -> abs_raw o = Some m -> payload_ok o = true ->
  py_pdu o = guard (spec_wf m) (spec_pdu m).
Proof.
  intros Hc Hr Hp. destruct o; cbn [abs_raw class_of payload_ok] in *.
  - (* OFixed *)
    destruct c; try discriminate Hr.
    (* the eleven classes with a layout: whichever shape the attribute look-up of [abs_raw] has, it yields [attr_values] *)
    all: try apply at2_attrs in Hr as (u & v & Ev & ->).
    all: try apply at3_attrs in Hr as (u & v & w & Ev & ->).
    all: try apply at1_attrs in Hr as (u & Ev & ->).
    all: try apply devid_attrs in Hr as (u & v & Ev & ->).
    all: eapply py_pdu_spec; [reflexivity|lia|eapply enc_fixed_guard; [reflexivity|reflexivity|exact Ev]|widths|reflexivity].
  - (* OEmpty *) destruct c; try discriminate Hr; injection Hr as <-; reflexivity.
  - (* OBitsRsp *)
    destruct c; try discriminate Hr; injection Hr as <-;
      (eapply py_pdu_spec; [reflexivity|lia|enc; reflexivity| |]);
      rewrite py_pack_spec; replace (zlen (spec_pack_bits bits)) with (bit_byte_count (len bits)) by (symmetry; apply spec_pack_bits_length);
      [widths|reflexivity|widths|reflexivity].
  - (* ORegsRsp *)
    destruct c; try discriminate Hr; injection Hr as <-;
      (eapply py_pdu_spec; [reflexivity|lia|enc; reflexivity| |]); rewrite (Z.mul_comm (zlen registers)); (widths || reflexivity).
  - (* OCoil *)
    pose proof (coil_word_u16 value).
    destruct c; try discriminate Hr; injection Hr as <-;
      (eapply py_pdu_spec; [reflexivity|lia|enc; reflexivity|widths|destruct value; reflexivity]).
  - (* OWriteRegReq *)
    injection Hr as <-. eapply py_pdu_spec; [reflexivity|lia|enc; reflexivity|widths|reflexivity].
  - (* OWriteCoilsReq *)
    injection Hr as <-. eapply py_pdu_spec; [reflexivity|lia|enc; reflexivity|widths|now rewrite py_pack_spec].
  - (* OWriteRegsReq *)
    destruct (_ && _) eqn:E in Hr; [|discriminate Hr]. injection Hr as <-.
    apply andb_true_iff in E as [->%Z.eqb_eq ->%Z.eqb_eq].
    eapply py_pdu_spec; [reflexivity|lia|enc; reflexivity|widths|reflexivity].
  - (* ORWReq *)
    destruct (_ && _) eqn:E in Hr; [|discriminate Hr]. injection Hr as <-.
    apply andb_true_iff in E as [->%Z.eqb_eq ->%Z.eqb_eq].
    eapply py_pdu_spec; [reflexivity|lia|enc; reflexivity|widths|reflexivity].
  - (* ODiag *)
    destruct (enc_diag_guard _ _ _ _ Hr) as (ws & -> & Hf & He).
    erewrite py_pdu_guard; [|cbn [obj_fc class_of]; now rewrite Hf|lia|exact He]. now destruct (is_request c).
  - (* OExcStatusRsp *)
    injection Hr as <-. eapply py_pdu_spec; [reflexivity|lia|enc; reflexivity|widths|reflexivity].
  - (* OEvCounterRsp *)
    injection Hr as <-. eapply py_pdu_spec; [reflexivity|lia|enc; reflexivity| |]; destruct status;
      (reflexivity || (unfold status_ready, status_waiting; widths)).
  - (* OEvLogRsp *)
    injection Hr as <-. eapply py_pdu_spec; [reflexivity|lia|enc; reflexivity| |]; destruct status;
      (reflexivity || (unfold status_ready, status_waiting; widths)).
  - (* OSlaveIdRsp: [spec_wf] also asks for real bytes, which [payload_ok] supplies *)
    injection Hr as <-. eapply py_pdu_spec; [reflexivity|lia|enc; reflexivity| |]; cbn [spec_wf]; rewrite ?Hp; destruct status;
      (reflexivity || (unfold status_slave_on, status_slave_off; widths)).
  - (* OFileRecs: the read response is not in conforming_encode *)
    destruct c; try discriminate Hr; try discriminate Hc;
      (destruct (forallb _ records) eqn:Eb in Hr; [|discriminate Hr]).
    1: { injection Hr as <-. fold rs_sub_read.
      eapply py_pdu_spec; [reflexivity|lia|enc; reflexivity| |];
        replace (zlen records * 7) with (7 * len (map rs_sub_read records)) by (unfold zlen, len; rewrite map_length; lia);
        [widths|reflexivity]. }
    all: destruct (opt_map _ records) as [ss|] eqn:Eo in Hr; [|discriminate Hr]; injection Hr as <-;
      destruct (enc_write_subs_guard records ss Eb Eo) as [He Hs];
      (eapply py_pdu_spec; [reflexivity|lia|enc; rewrite Hs, He; guards; reflexivity|widths|reflexivity]).
  - (* OFifoRsp: not in conforming_encode *) discriminate Hc.
  - (* OMeiRsp *)
    destruct (_ && _) eqn:E in Hr; [|discriminate Hr]. injection Hr as <-.
    apply andb_true_iff in E as [->%Z.eqb_eq Hfit%Z.ltb_lt].
    eapply py_pdu_spec; [reflexivity|lia| | |reflexivity].
    + unfold py_encode, encode_st. rewrite pk_fields, guard_match, mei_objs_guard, guard_match by (reflexivity || assumption).
      cbv beta iota. rewrite pk_fields, guard_match by reflexivity. cbn [fst]. guards. reflexivity.
    + cbn [spec_wf]. destruct (forallb object_wf (mei_items information)); widths.
  - (* OExc *)
    destruct (Z.eqb_spec function_code (original_code + 128)) as [->|]; [|discriminate Hr]. injection Hr as <-.
    eapply py_pdu_spec; [reflexivity|lia|enc; reflexivity|cbn [spec_wf]; rewrite Hp; widths|reflexivity].
  - (* OIllegal *) discriminate Hr.
Qed.

Lemma abs_payload_ok o m : abs o = Some m -> payload_ok o = true.
Proof.
  intros H. apply abs_inv in H as [Hr Hw]. destruct o; try reflexivity; cbn [abs_raw payload_ok] in *.
  - injection Hr as <-. cbn [spec_wf] in Hw. now split_andb Hw.
  - destruct (_ && _) in Hr; [|discriminate Hr]. injection Hr as <-. cbn [spec_wf] in Hw. apply andb_true_iff in Hw as [_ Hw].
    rewrite forallb_forall in *. intros x Hx. specialize (Hw x Hx). unfold object_wf in Hw. now split_andb Hw.
  - destruct (_ =? _) in Hr; [|discriminate Hr]. injection Hr as <-. cbn [spec_wf] in Hw. lia.
Qed.

Theorem encode_conforms o m :
  mem_cls (class_of o) conforming_encode = true -> abs o = Some m -> py_pdu o = Ok (spec_pdu m).
Proof.
  intros Hc H. pose proof (abs_payload_ok _ _ H) as Hp. apply abs_inv in H as [Hr Hw].
  now rewrite (encode_spec o m Hc Hr Hp), Hw.
Qed.

Theorem encode_rejects o m :
  mem_cls (class_of o) conforming_encode = true -> abs_raw o = Some m -> spec_wf m = false -> payload_ok o = true ->
  py_pdu o = Raise StructError.
Proof. intros Hc Hr Hw Hp. now rewrite (encode_spec o m Hc Hr Hp), Hw. Qed.
