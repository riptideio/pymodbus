(* FrA_tls_proofs.v — the TLS framer model instantiated with [GenFramerA.tls]. *)
From PM.theories Require Import Base FrBaseA FrTls.
From PM.Generated Require Import GenFramerA.
From PM.proofs Require Import Base_proofs.
Open Scope list_scope.
Open Scope Z_scope.

Lemma tls_skel_ok : s_skel tls = tls_skel_expected.
Proof. reflexivity. Qed.

Lemma tls_ready buf : s_isready tls buf = (Z.of_nat (length buf) >? 0).
Proof. apply z2b_b2z. Qed.

(* _hsize is 0: the generated comparison keeps its `- 0` *)
Lemma tls_check buf : s_check tls buf = (Z.of_nat (length buf) >? 0) && (Z.of_nat (length buf) - 0 >=? 1).
Proof. unfold s_check. rewrite tls_ready. f_equal. apply z2b_b2z. Qed.

(* the header dict has no 'uid': the filter is called without a unit id *)
Lemma tls_recv_fresh dec c pdu : (1 <= length pdu)%nat ->
  s_recv base tls dec c [] pdu =
  if single_of (s_single_default tls) c || zmem 0 (c_units c) || zmem 255 (c_units c)
  then match dec pdu with
       | DNone => (pdu, [], Exc ModbusIOExc)
       | DRaise e => (pdu, [], Exc e)
       | DMsg _ => ([], [{| d_pdu := pdu; d_tid := 0; d_pid := 0; d_uid := 0 |}], Done)
       end
  else (pdu, [], Exc KeyError).
Proof.
  intros Hl. unfold s_recv. cbn [app]. rewrite tls_ready, tls_check.
  replace (_ >? 0) with true by lia. replace (_ >=? 1) with true by lia. cbn [andb].
  unfold validate_unit. change (s_uid tls) with (@None Z). change (pyfrom pdu _) with pdu.
  destruct (single_of _ c); [reflexivity|]. cbn [orb v_any base existsb]. rewrite orb_false_r.
  now destruct (_ || _).
Qed.
