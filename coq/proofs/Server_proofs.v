(* Server_proofs.v — the server execute/send model on the GENERATED skeletons (Generated/GenServer.v).  The generated
   front-ends are instances of one handler shape with two options ([fe_skel], [fe_shape]), on which [Server.respond]
   computes the direct-style function [spec_respond] ([respond_spec]).  A dropped id copy, an inverted ignore test, a
   reordered except ladder, a changed exception code or a missing guard in any one front-end makes [fe_shape] fail.
   The facts about one request are proved about [spec_respond]; then come served lists ([serve]), two refutations by
   witness, and the framer side: the unit filter and the unit list each handle() builds ([accepts]). *)
From PM.theories Require Import Base Server.
From PM.Generated Require Import GenServer.
Open Scope list_scope.
Open Scope Z_scope.

Definition all_fes : list skel := map snd frontends.
(* front-ends whose configuration has broadcast_enable *)
Definition bcast_fes : list skel := [sync_tcp; sync_udp; sync_serial; aio_tcp; aio_udp].
(* front-ends that have no such option *)
Definition nobcast_fes : list skel := [tw_tcp; tw_udp].
(* front-ends whose send() honours should_respond *)
Definition gated_fes : list skel := [sync_tcp; sync_udp; sync_serial; aio_tcp; aio_udp; tw_tcp].

Definition has_bcast (sk : skel) : bool := match sk_bcast sk with Some _ => true | None => false end.
Definition gated (sk : skel) : bool := match sk_send_gate sk with CTrue => false | _ => true end.

(* The shape of every generated handler.  [hb]: execute() has the broadcast branch, sends only `if not broadcast`,
   and handle() appends unit 0 to the framer's list under broadcast_enable; [gate]: send() tests should_respond.
   Every entry point gives the unit list to the framer, so [sk_passes_units] does not vary. *)
Definition fe_skel (hb gate : bool) : skel := {|
  sk_bcast := if hb then Some (CAnd CBcastEnable (CUnitIs 0)) else None;
  sk_ladder := [ArmNoSlave CIgnoreMissing 11; ArmAny 4];
  sk_send_guard := if hb then CNot CBroadcastVar else CTrue;
  sk_copy_tid := true;
  sk_copy_uid := true;
  sk_send_gate := if gate then CShouldRespond else CTrue;
  sk_append0 := if hb then CAnd CBcastEnable (CNot (CInUnits 0)) else CFalse;
  sk_passes_units := true |}.

Lemma fe_shape sk : In sk all_fes -> sk = fe_skel (has_bcast sk) (gated sk).
Proof. intros H. repeat (destruct H as [<-|H]; [reflexivity|]). destruct H. Qed.

Lemma bcast_fes_iff sk : In sk bcast_fes <-> In sk all_fes /\ has_bcast sk = true.
Proof. change bcast_fes with (filter has_bcast all_fes). apply filter_In. Qed.

Lemma nobcast_fes_iff sk : In sk nobcast_fes <-> In sk all_fes /\ has_bcast sk = false.
Proof.
  change nobcast_fes with (filter (fun sk => negb (has_bcast sk)) all_fes). now rewrite filter_In, negb_true_iff.
Qed.

Lemma gated_fes_iff sk : In sk gated_fes <-> In sk all_fes /\ gated sk = true.
Proof. change gated_fes with (filter gated all_fes). apply filter_In. Qed.

Lemma ctx_key_multi cfg u : cf_single cfg = false -> ctx_key code cfg u = u.
Proof. unfold ctx_key. now intros ->. Qed.

Lemma ctx_key_single cfg u : cf_single cfg = true -> ctx_key code cfg u = 0.
Proof. unfold ctx_key. now intros ->. Qed.

Section WithStore.
Variable S : Type.
Notation units := (units S).
Notation dreq := (dreq S).

Definition sp_bcast (hb : bool) (cfg : scfg) (rq : dreq) : bool := hb && cf_bcast cfg && (rq_uid rq =? 0).

Definition the_out (rq : dreq) (r : rsp) : out :=
  {| o_tid := rq_tid rq; o_uid := rq_uid rq; o_fc := rs_fc r; o_code := rs_code r; o_dest := rq_dest rq |}.

(* request.doException(code); 128 = sc_exc_offset code; the codes used are those of the generated ladders, 11 and 4 *)
Definition exc_of (rq : dreq) (code : Z) : rsp :=
  {| rs_fc := Z.lor (rq_fc rq) 128; rs_respond := true; rs_code := Some code |}.

Definition send_of (gate : bool) (rq : dreq) (r : rsp) : list out :=
  if gate && negb (rs_respond r) then [] else [the_out rq r].

Definition missing_outs (cfg : scfg) (rq : dreq) : list out :=
  if cf_ignore cfg then [] else [the_out rq (exc_of rq 11)].

Definition spec_respond (hb gate : bool) (cfg : scfg) (l : units) (rq : dreq) : units * list out * option pyexn :=
  if sp_bcast hb cfg rq then
    (fst (fst (bcast_loop S code cfg (u_keys S l) l rq None)), [], None)
  else match exec_on S code cfg l (rq_uid rq) rq with
       | None => (l, missing_outs cfg rq, None)
       | Some (l', Ok r) => (l', send_of gate rq r, None)
       | Some (l', Raise e) =>
           (l', if pyexn_eqb e NoSuchSlaveExc then missing_outs cfg rq else [the_out rq (exc_of rq 4)], None)
       end.

Lemma finish_send hb gate cfg rq l r :
  finish S code (fe_skel hb gate) cfg rq false l (Some r) = (l, send_of gate rq r, None).
Proof. destruct hb, gate; try reflexivity; unfold finish, send_of; cbn; destruct (rs_respond r); reflexivity. Qed.

Lemma ladder_fe hb gate cfg rq b e :
  run_ladder code (mkenv cfg (rq_uid rq) b true []) (sk_ladder (fe_skel hb gate)) (rq_fc rq) e =
  if pyexn_eqb e NoSuchSlaveExc then (if cf_ignore cfg then LReturn else LResp (exc_of rq 11)) else LResp (exc_of rq 4).
Proof. reflexivity. Qed.

Lemma send_of_exc gate rq c : send_of gate rq (exc_of rq c) = [the_out rq (exc_of rq c)].
Proof. unfold send_of. cbn [exc_of rs_respond negb]. now rewrite andb_false_r. Qed.

Lemma bvar_fe hb gate cfg (rq : dreq) :
  match sk_bcast (fe_skel hb gate) with
  | Some c => ceval (mkenv cfg (rq_uid rq) false true []) c
  | None => false
  end = sp_bcast hb cfg rq.
Proof. destruct hb; reflexivity. Qed.

Lemma respond_fe_skel hb gate cfg l rq :
  respond S code (fe_skel hb gate) cfg l rq = spec_respond hb gate cfg l rq.
Proof.
  unfold respond, spec_respond, missing_outs. rewrite bvar_fe. destruct (sp_bcast hb cfg rq) eqn:Hb.
  - (* the send guard `not broadcast` is false: whatever the loop and the ladder give, nothing is sent *)
    destruct hb; [|discriminate Hb].
    destruct (bcast_loop S code cfg (u_keys S l) l rq None) as [[l1 resp] [e|]]; [rewrite ladder_fe|reflexivity].
    destruct (pyexn_eqb e NoSuchSlaveExc); [destruct (cf_ignore cfg)|]; reflexivity.
  - destruct (exec_on S code cfg l (rq_uid rq) rq) as [[l' [r|e]]|]; rewrite ?ladder_fe.
    + apply finish_send.
    + destruct (pyexn_eqb e NoSuchSlaveExc); [destruct (cf_ignore cfg)|];
        rewrite ?finish_send, ?send_of_exc; reflexivity.
    + cbn [pyexn_eqb]. destruct (cf_ignore cfg); rewrite ?finish_send, ?send_of_exc; reflexivity.
Qed.

Lemma respond_spec : forall sk, In sk all_fes -> forall cfg l rq,
  respond S code sk cfg l rq = spec_respond (has_bcast sk) (gated sk) cfg l rq.
Proof. intros sk H cfg l rq. rewrite (fe_shape sk H) at 1. apply respond_fe_skel. Qed.

Lemma u_get_set_same : forall (l : units) k v, u_get S l k <> None -> u_get S (u_set S l k v) k = Some v.
Proof.
  induction l as [|[k' s] t IH]; intros k v H; cbn in *; [congruence|].
  destruct (k' =? k) eqn:E; cbn; rewrite E; [reflexivity|]. apply IH. exact H.
Qed.

Lemma u_get_set_other : forall (l : units) k k' v, k' <> k -> u_get S (u_set S l k v) k' = u_get S l k'.
Proof.
  induction l as [|[k0 s] t IH]; intros k k' v H; cbn; [reflexivity|].
  destruct (k0 =? k) eqn:E; cbn.
  - destruct (k0 =? k') eqn:E'; [lia | reflexivity].
  - destruct (k0 =? k') eqn:E'; [reflexivity | apply IH; exact H].
Qed.

Lemma u_keys_set : forall (l : units) k v, u_keys S (u_set S l k v) = u_keys S l.
Proof.
  induction l as [|[k0 s] t IH]; intros k v; cbn; [reflexivity|].
  destruct (k0 =? k); cbn; [reflexivity|]. f_equal. apply IH.
Qed.

Lemma u_set_absent : forall (l : units) k v, u_get S l k = None -> u_set S l k v = l.
Proof.
  induction l as [|[k0 s] t IH]; intros k v H; cbn in *; [reflexivity|].
  destruct (k0 =? k); [congruence|]. f_equal. apply IH. exact H.
Qed.

Lemma u_set_same : forall (l : units) k s, u_get S l k = Some s -> u_set S l k s = l.
Proof.
  induction l as [|[k0 s0] t IH]; intros k s H; cbn in *; [reflexivity|].
  destruct (k0 =? k); [now injection H as ->|]. f_equal. now apply IH.
Qed.

Lemma u_get_in_keys : forall (l : units) k, u_get S l k <> None <-> In k (u_keys S l).
Proof.
  induction l as [|[k0 s] t IH]; intros k; cbn; [split; [congruence | tauto]|].
  destruct (k0 =? k) eqn:E.
  - split; [intros _; left; lia | congruence].
  - rewrite IH. split; [tauto | intros [H|H]; [lia | exact H]].
Qed.

Lemma u_get_app_notin : forall (pre t : units) k, ~ In k (u_keys S pre) -> u_get S (pre ++ t) k = u_get S t k.
Proof.
  induction pre as [|[k0 s0] pre IH]; intros t k H; cbn in *; [reflexivity|].
  destruct (k0 =? k) eqn:E; [exfalso; apply H; left; lia|]. apply IH. tauto.
Qed.

Lemma u_set_app_notin : forall (pre t : units) k v, ~ In k (u_keys S pre) -> u_set S (pre ++ t) k v = pre ++ u_set S t k v.
Proof.
  induction pre as [|[k0 s0] pre IH]; intros t k v H; cbn in *; [reflexivity|].
  destruct (k0 =? k) eqn:E; [exfalso; apply H; left; lia|]. f_equal. apply IH. tauto.
Qed.

Lemma exec_on_hosted cfg (l : units) k (rq : dreq) s : u_get S l (ctx_key code cfg k) = Some s ->
  exec_on S code cfg l k rq = Some (u_set S l (ctx_key code cfg k) (fst (rq_exec rq s)), snd (rq_exec rq s)).
Proof. intros H. unfold exec_on. rewrite H. now destruct (rq_exec rq s). Qed.

Lemma exec_on_absent cfg (l : units) k (rq : dreq) :
  u_get S l (ctx_key code cfg k) = None -> exec_on S code cfg l k rq = None.
Proof. intros H. unfold exec_on. now rewrite H. Qed.

Lemma bcast_loop_keys : forall cfg ks (l : units) (rq : dreq) last,
  u_keys S (fst (fst (bcast_loop S code cfg ks l rq last))) = u_keys S l.
Proof.
  intros cfg ks. induction ks as [|k t IH]; intros l rq last; cbn [bcast_loop]; [reflexivity|].
  destruct (u_get S l (ctx_key code cfg k)) as [s|] eqn:E;
    [rewrite (exec_on_hosted _ _ _ _ _ E) | now rewrite (exec_on_absent _ _ _ _ E)].
  destruct (snd (rq_exec rq s)); [rewrite IH|]; apply u_keys_set.
Qed.

Lemma spec_respond_bcast hb gate cfg l rq : sp_bcast hb cfg rq = true ->
  spec_respond hb gate cfg l rq = (fst (fst (bcast_loop S code cfg (u_keys S l) l rq None)), [], None).
Proof. unfold spec_respond. now intros ->. Qed.

Lemma spec_respond_absent hb gate cfg l rq :
  sp_bcast hb cfg rq = false -> u_get S l (ctx_key code cfg (rq_uid rq)) = None ->
  spec_respond hb gate cfg l rq = (l, missing_outs cfg rq, None).
Proof. intros Hb Hm. unfold spec_respond. now rewrite Hb, (exec_on_absent _ _ _ _ Hm). Qed.

Lemma spec_respond_hosted hb gate cfg l rq s :
  sp_bcast hb cfg rq = false -> u_get S l (ctx_key code cfg (rq_uid rq)) = Some s ->
  spec_respond hb gate cfg l rq =
    (u_set S l (ctx_key code cfg (rq_uid rq)) (fst (rq_exec rq s)),
     match snd (rq_exec rq s) with
     | Ok r => send_of gate rq r
     | Raise e => if pyexn_eqb e NoSuchSlaveExc then missing_outs cfg rq else [the_out rq (exc_of rq 4)]
     end, None).
Proof. intros Hb Hs. unfold spec_respond. rewrite Hb, (exec_on_hosted _ _ _ _ _ Hs). now destruct (snd (rq_exec rq s)). Qed.

Lemma spec_outs hb gate cfg l rq :
  snd (spec_respond hb gate cfg l rq) = None /\
  (snd (fst (spec_respond hb gate cfg l rq)) = [] \/
   exists r, snd (fst (spec_respond hb gate cfg l rq)) = [the_out rq r] /\
             (r = exc_of rq 11 \/ r = exc_of rq 4 \/ exists s, snd (rq_exec rq s) = Ok r)).
Proof.
  destruct (sp_bcast hb cfg rq) eqn:Hb; [rewrite spec_respond_bcast by exact Hb; auto|].
  destruct (u_get S l (ctx_key code cfg (rq_uid rq))) as [s|] eqn:Hs.
  - rewrite (spec_respond_hosted _ _ _ _ _ _ Hb Hs). split; [reflexivity|]. cbn [fst snd].
    destruct (snd (rq_exec rq s)) as [r|e] eqn:Hr.
    + (* execute answered: nothing under the gate, else that answer *)
      unfold send_of. destruct (gate && negb (rs_respond r)); eauto 8.
    + (* execute raised: as for an absent unit, or exception 4 *)
      unfold missing_outs. destruct (pyexn_eqb e NoSuchSlaveExc); [destruct (cf_ignore cfg)|]; eauto 8.
  - rewrite spec_respond_absent by assumption. split; [reflexivity|]. cbn [fst snd].
    unfold missing_outs. destruct (cf_ignore cfg); eauto.
Qed.

Lemma spec_echo : forall hb gate cfg l rq o,
  In o (snd (fst (spec_respond hb gate cfg l rq))) ->
  o_tid o = rq_tid rq /\ o_uid o = rq_uid rq /\ o_dest o = rq_dest rq /\
  ((o_fc o = Z.lor (rq_fc rq) 128 /\ (o_code o = Some 11 \/ o_code o = Some 4)) \/
   exists s s' r, rq_exec rq s = (s', Ok r) /\ o_fc o = rs_fc r /\ o_code o = rs_code r).
Proof.
  intros hb gate cfg l rq o. destruct (spec_outs hb gate cfg l rq) as [_ [->|(r & -> & Hr)]]; [intros []|].
  intros [<-|[]]. repeat split. destruct Hr as [->|[->|[s Hr]]]; cbn; [tauto..|].
  right. exists s, (fst (rq_exec rq s)), r. rewrite <- Hr. split; [apply surjective_pairing|tauto].
Qed.

Lemma sp_bcast_unit0 cfg (rq : dreq) : cf_bcast cfg = true -> rq_uid rq = 0 -> sp_bcast true cfg rq = true.
Proof. unfold sp_bcast. now intros -> ->. Qed.

Lemma spec_silence_listen_only : forall hb cfg l rq s s' r,
  sp_bcast hb cfg rq = false -> u_get S l (ctx_key code cfg (rq_uid rq)) = Some s ->
  rq_exec rq s = (s', Ok r) -> rs_respond r = false ->
  snd (fst (spec_respond hb true cfg l rq)) = [].
Proof.
  intros hb cfg l rq s s' r Hb Hs He Hr. rewrite (spec_respond_hosted _ _ _ _ _ _ Hb Hs), He. cbn.
  unfold send_of. now rewrite Hr.
Qed.

Lemma spec_responds : forall hb gate cfg l rq s,
  sp_bcast hb cfg rq = false -> u_get S l (ctx_key code cfg (rq_uid rq)) = Some s ->
  match snd (rq_exec rq s) with
  | Ok r => rs_respond r = true
  | Raise e => e <> NoSuchSlaveExc
  end ->
  snd (fst (spec_respond hb gate cfg l rq)) =
    [the_out rq (match snd (rq_exec rq s) with Ok r => r | Raise _ => exc_of rq 4 end)].
Proof.
  intros hb gate cfg l rq s Hb Hs Hr. rewrite (spec_respond_hosted _ _ _ _ _ _ Hb Hs). cbn [fst snd].
  destruct (snd (rq_exec rq s)) as [r|e].
  - unfold send_of. now rewrite Hr, andb_false_r.
  - now destruct e.
Qed.

Lemma spec_keys : forall hb gate cfg l rq, u_keys S (fst (fst (spec_respond hb gate cfg l rq))) = u_keys S l.
Proof.
  intros. destruct (sp_bcast hb cfg rq) eqn:Hb; [rewrite spec_respond_bcast by exact Hb; apply bcast_loop_keys|].
  destruct (u_get S l (ctx_key code cfg (rq_uid rq))) as [s|] eqn:Hs.
  - rewrite (spec_respond_hosted _ _ _ _ _ _ Hb Hs). apply u_keys_set.
  - now rewrite spec_respond_absent.
Qed.

Lemma spec_isolation : forall hb gate cfg l rq v,
  sp_bcast hb cfg rq = false -> v <> ctx_key code cfg (rq_uid rq) ->
  u_get S (fst (fst (spec_respond hb gate cfg l rq))) v = u_get S l v.
Proof.
  intros hb gate cfg l rq v Hb Hv. destruct (u_get S l (ctx_key code cfg (rq_uid rq))) as [s|] eqn:Hs.
  - rewrite (spec_respond_hosted _ _ _ _ _ _ Hb Hs). now apply u_get_set_other.
  - now rewrite spec_respond_absent.
Qed.

Lemma spec_addressed : forall hb gate cfg l rq s,
  sp_bcast hb cfg rq = false -> u_get S l (ctx_key code cfg (rq_uid rq)) = Some s ->
  u_get S (fst (fst (spec_respond hb gate cfg l rq))) (ctx_key code cfg (rq_uid rq)) = Some (fst (rq_exec rq s)).
Proof.
  intros hb gate cfg l rq s Hb Hs. rewrite (spec_respond_hosted _ _ _ _ _ _ Hb Hs). apply u_get_set_same. congruence.
Qed.

Lemma spec_single : forall hb gate cfg s rq,
  cf_single cfg = true -> sp_bcast hb cfg rq = false ->
  fst (fst (spec_respond hb gate cfg [(0, s)] rq)) = [(0, fst (rq_exec rq s))].
Proof.
  intros hb gate cfg s rq Hs Hb. rewrite (spec_respond_hosted _ _ _ _ _ s Hb); now rewrite (ctx_key_single _ _ Hs).
Qed.

(* the broadcast loop over context.slaves(): units are visited in dict order, each exactly once, and the first
   failure ends the loop *)
Fixpoint bcast_walk (rq : dreq) (l : units) : units :=
  match l with
  | [] => []
  | (k, s) :: t =>
      match snd (rq_exec rq s) with
      | Ok _ => (k, fst (rq_exec rq s)) :: bcast_walk rq t
      | Raise _ => (k, fst (rq_exec rq s)) :: t
      end
  end.

Definition apply_all (rq : dreq) (l : units) : units := map (fun p => (fst p, fst (rq_exec rq (snd p)))) l.

Lemma bcast_walk_all rq l : (forall s, exists r, snd (rq_exec rq s) = Ok r) -> bcast_walk rq l = apply_all rq l.
Proof.
  intros Hok. induction l as [|[k s] t IH]; [reflexivity|]. cbn. destruct (Hok s) as [r ->]. now rewrite IH.
Qed.

(* [pre]: the units already visited *)
Lemma bcast_loop_walk : forall cfg (rq : dreq), cf_single cfg = false ->
  forall (t pre : units) last, NoDup (u_keys S (pre ++ t)) ->
  fst (fst (bcast_loop S code cfg (u_keys S t) (pre ++ t) rq last)) = pre ++ bcast_walk rq t.
Proof.
  intros cfg rq Hs t. induction t as [|[k s] t IH]; intros pre last Hnd; [reflexivity|].
  assert (Hk : ~ In k (u_keys S pre)).
  { unfold u_keys in Hnd. rewrite map_app in Hnd. apply NoDup_remove_2 in Hnd.
    intros Hin. apply Hnd, in_or_app. now left. }
  cbn [u_keys map fst bcast_loop bcast_walk].
  rewrite (exec_on_hosted cfg _ k rq s), (ctx_key_multi _ _ Hs), (u_set_app_notin _ _ _ _ Hk)
    by (rewrite (ctx_key_multi _ _ Hs), (u_get_app_notin _ _ _ Hk); cbn; now rewrite Z.eqb_refl).
  cbn [u_set]. rewrite Z.eqb_refl. destruct (snd (rq_exec rq s)); [|reflexivity].
  change (pre ++ (k, fst (rq_exec rq s)) :: t) with (pre ++ [(k, fst (rq_exec rq s))] ++ t). rewrite app_assoc.
  rewrite (IH (pre ++ [(k, fst (rq_exec rq s))])); rewrite <- app_assoc; [reflexivity|].
  unfold u_keys in *. now rewrite map_app in *.
Qed.

Lemma spec_broadcast_exact : forall gate cfg l rq,
  cf_bcast cfg = true -> rq_uid rq = 0 -> cf_single cfg = false -> NoDup (u_keys S l) ->
  spec_respond true gate cfg l rq = (bcast_walk rq l, [], None).
Proof.
  intros gate cfg l rq Hb Hu Hs Hnd. rewrite spec_respond_bcast by now apply sp_bcast_unit0.
  exact (f_equal (fun l' => (l', [], None)) (bcast_loop_walk cfg rq Hs l [] None Hnd)).
Qed.

Lemma spec_broadcast : forall gate cfg l rq,
  cf_bcast cfg = true -> rq_uid rq = 0 -> cf_single cfg = false -> NoDup (u_keys S l) ->
  (forall s, exists r, snd (rq_exec rq s) = Ok r) ->
  spec_respond true gate cfg l rq = (apply_all rq l, [], None).
Proof. intros gate cfg l rq Hb Hu Hs Hnd Hok. rewrite <- (bcast_walk_all rq l Hok). now apply spec_broadcast_exact. Qed.

Lemma spec_broadcast_single : forall gate cfg s rq,
  cf_bcast cfg = true -> rq_uid rq = 0 -> cf_single cfg = true ->
  spec_respond true gate cfg [(0, s)] rq = ([(0, fst (rq_exec rq s))], [], None).
Proof.
  intros gate cfg s rq Hb Hu Hs. rewrite spec_respond_bcast by now apply sp_bcast_unit0.
  cbn [u_keys map fst bcast_loop]. rewrite (exec_on_hosted _ _ _ _ s), (ctx_key_single _ _ Hs) by now rewrite (ctx_key_single _ _ Hs).
  cbn. now destruct (snd (rq_exec rq s)).
Qed.

Lemma respond_spec_bcast sk : In sk bcast_fes -> forall cfg l rq,
  respond S code sk cfg l rq = spec_respond true (gated sk) cfg l rq.
Proof. intros H cfg l rq. apply bcast_fes_iff in H as [H Hb]. now rewrite (respond_spec sk H), Hb. Qed.

Definition outs_of (sk : skel) (cfg : scfg) (l : units) (rq : dreq) : list out :=
  snd (fst (respond S code sk cfg l rq)).

Lemma c09_at_most_one : forall sk, In sk all_fes -> forall cfg l rq,
  snd (respond S code sk cfg l rq) = None /\ (length (outs_of sk cfg l rq) <= 1)%nat.
Proof.
  intros sk H cfg l rq. unfold outs_of. rewrite (respond_spec sk H).
  destruct (spec_outs (has_bcast sk) (gated sk) cfg l rq) as [He [->|(r & -> & _)]]; split; cbn; auto.
Qed.

Definition is_bcast (sk : skel) (cfg : scfg) (rq : dreq) : bool := sp_bcast (has_bcast sk) cfg rq.

Lemma respond_absent : forall sk, In sk all_fes -> forall cfg l rq,
  is_bcast sk cfg rq = false -> u_get S l (ctx_key code cfg (rq_uid rq)) = None ->
  respond S code sk cfg l rq = (l, missing_outs cfg rq, None).
Proof. intros sk H cfg l rq Hb Hm. rewrite (respond_spec sk H). now apply spec_respond_absent. Qed.

Fixpoint states (sk : skel) (cfg : scfg) (l : units) (rqs : list dreq) : list units :=
  match rqs with
  | [] => []
  | rq :: t => l :: states sk cfg (fst (fst (respond S code sk cfg l rq))) t
  end.

(* no request lets an exception escape, so the loop never ends early *)
Lemma serve_cons sk : In sk all_fes -> forall cfg l rq t,
  serve S code sk cfg l (rq :: t) =
    let '(l2, o2, e2) := serve S code sk cfg (fst (fst (respond S code sk cfg l rq))) t in
    (l2, outs_of sk cfg l rq ++ o2, e2).
Proof.
  intros H cfg l rq t. cbn [serve]. unfold outs_of. destruct (c09_at_most_one sk H cfg l rq) as [Hn _].
  destruct (respond S code sk cfg l rq) as [[l1 o1] e1]. cbn in Hn. now subst e1.
Qed.

Lemma serve_preserves {A} (f : units -> A) sk cfg rqs : In sk all_fes ->
  (forall l rq, In rq rqs -> f (fst (fst (respond S code sk cfg l rq))) = f l) ->
  forall l, f (fst (fst (serve S code sk cfg l rqs))) = f l.
Proof.
  intros Hin. induction rqs as [|rq t IH]; intros Hf l; [reflexivity|].
  rewrite (serve_cons sk Hin). rewrite <- (Hf l rq (or_introl eq_refl)).
  rewrite <- (IH (fun l rq H => Hf l rq (or_intror H)) (fst (fst (respond S code sk cfg l rq)))).
  now destruct (serve S code sk cfg _ t) as [[l2 o2] e2].
Qed.

End WithStore.

Lemma c09_silence_refuted :
  ~ (forall S sk, In sk all_fes -> forall cfg (l : units S) (rq : dreq S) s s' r,
     is_bcast S sk cfg rq = false -> u_get S l (ctx_key code cfg (rq_uid rq)) = Some s ->
     rq_exec rq s = (s', Ok r) -> rs_respond r = false -> outs_of S sk cfg l rq = []).
Proof.
  intros H.
  specialize (H unit tw_udp ltac:(cbv [all_fes frontends map snd In]; tauto)
                {| cf_single := false; cf_bcast := false; cf_ignore := false |} [(1, tt)]
                {| rq_tid := 1; rq_uid := 1; rq_fc := 8; rq_dest := 1;
                   rq_exec := fun s => (s, Ok {| rs_fc := 8; rs_respond := false; rs_code := None |}) |} tt tt
                {| rs_fc := 8; rs_respond := false; rs_code := None |}
                eq_refl eq_refl eq_refl eq_refl).
  vm_compute in H. discriminate H.
Qed.

Lemma c10_broadcast_refuted :
  ~ (forall S sk, In sk bcast_fes -> forall cfg (l : units S) (rq : dreq S),
     cf_bcast cfg = true -> rq_uid rq = 0 -> cf_single cfg = false -> NoDup (u_keys S l) ->
     fst (fst (respond S code sk cfg l rq)) = apply_all S rq l).
Proof.
  intros H.
  specialize (H Z sync_tcp ltac:(cbv [bcast_fes In]; tauto)
                {| cf_single := false; cf_bcast := true; cf_ignore := false |} [(1, 1); (2, 2)]
                {| rq_tid := 1; rq_uid := 0; rq_fc := 6; rq_dest := 0;
                   rq_exec := fun s => if s =? 1 then (s, Raise OtherExc)
                                       else (s + 10, Ok {| rs_fc := 6; rs_respond := true; rs_code := None |}) |}
                eq_refl eq_refl eq_refl).
  assert (Hnd : NoDup (u_keys Z [(1, 1); (2, 2)])) by (repeat constructor; cbn; lia).
  specialize (H Hnd). vm_compute in H. discriminate H.
Qed.

Lemma unit_filter_spec : forall us single uid,
  unit_filter code us single uid = single || zmem 0 us || zmem 255 us || zmem uid us.
Proof.
  intros. unfold unit_filter.
  cbn [ceval code sc_unit_filter ce_single ce_units ce_uid]. destruct single; cbn [orb]; [reflexivity|].
  destruct (zmem 0 us), (zmem 255 us); reflexivity.
Qed.

Lemma zmem_in : forall k l, In k l -> zmem k l = true.
Proof. intros k l H. unfold zmem. apply existsb_exists. exists k. split; [exact H | lia]. Qed.

Lemma unit_list_fe hb gate cfg hosted :
  unit_list (fe_skel hb gate) cfg hosted =
    if hb && cf_bcast cfg && negb (zmem 0 hosted) then hosted ++ [0] else hosted.
Proof. destruct hb; reflexivity. Qed.

Lemma unit_list_incl sk cfg hosted u : In u hosted -> In u (unit_list sk cfg hosted).
Proof. intros H. unfold unit_list. destruct (ceval _ _); [apply in_or_app; left|]; exact H. Qed.

Lemma c10_accepts_spec : forall sk, In sk all_fes -> forall cfg hosted uid,
  accepts code sk cfg hosted uid =
    let ul := unit_list sk cfg hosted in
    Ok (cf_single cfg || zmem 0 ul || zmem 255 ul || zmem uid ul).
Proof.
  intros sk H cfg hosted uid. unfold accepts. rewrite (fe_shape sk H) at 1. cbn [sk_passes_units fe_skel].
  now rewrite unit_filter_spec.
Qed.

(* handle() has put 0 into the list, which _validate_unit_id takes as "any unit" *)
Lemma c10_broadcast_accepts_all : forall sk, In sk bcast_fes -> forall cfg hosted uid,
  cf_bcast cfg = true -> accepts code sk cfg hosted uid = Ok true.
Proof.
  intros sk H cfg hosted uid Hb. apply bcast_fes_iff in H as [H Hh].
  rewrite (c10_accepts_spec sk H). cbv zeta. f_equal.
  enough (Hz : zmem 0 (unit_list sk cfg hosted) = true) by (rewrite Hz, orb_true_r; reflexivity).
  rewrite (fe_shape sk H), unit_list_fe, Hh, Hb. cbn [andb].
  destruct (zmem 0 hosted) eqn:E; cbn [negb]; [exact E|]. unfold zmem. rewrite existsb_app. apply orb_true_r.
Qed.
