(* FrA_tcp_gate_proofs.v — C07 at loop level for the socket framer: the predicate [tcp_justified] (a delivery
   is an MBAP frame lying in the input) and its proof for every delivery of the receive loop, from ANY state. *)
From PM.theories Require Import Base Expr Struct FrBaseA FrTcp FrSpecA.
From PM.Generated Require Import GenFramerA.
From PM.proofs Require Import Base_proofs FrA_tcp_proofs.
Open Scope list_scope.
Open Scope Z_scope.
(* lia also decides the goals with / 256 and mod 256 below (be16) *)
Ltac Zify.zify_post_hook ::= Z.to_euclidean_division_equations.

Definition tcp_justified (buf : bytes) (d : delivery) : Prop :=
  (1 <= length (d_pdu d))%nat /\
  exists pre post, buf = pre ++ spec_adu_tcp (d_tid d) (d_pid d) (d_uid d) (d_pdu d) ++ post.

Lemma tcp_justified_app_l p l d : tcp_justified l d -> tcp_justified (p ++ l) d.
Proof.
  intros (H1 & pre & post & ->). split; [exact H1|].
  exists (p ++ pre), post. now rewrite app_assoc.
Qed.

Lemma be16_unpack1_H a b : (a < 256)%N -> (b < 256)%N -> be16 (unpack1 true FH [a; b]) = [a; b].
Proof.
  intros Ha Hb. unfold unpack1, of_unsigned, be16. cbn [fsigned andb rev app le_value].
  f_equal; [|f_equal]; lia.
Qed.

Lemma u8_unpack1_B a : Z.to_N (unpack1 true FB [a]) = a.
Proof. unfold unpack1, of_unsigned. cbn [fsigned andb rev app le_value]. lia. Qed.

Lemma mbap_hdr_of hb : length hb = 7%nat -> wfb hb = true ->
  mbap (h_tid (hdr_of hb)) (h_pid (hdr_of hb)) (h_len (hdr_of hb)) (h_uid (hdr_of hb)) = hb.
Proof.
  intros HL Hw.
  destruct hb as [|b0 [|b1 [|b2 [|b3 [|b4 [|b5 [|b6 [|b7 t]]]]]]]]; try discriminate HL.
  do 7 (apply wfb_cons in Hw as [? Hw]).
  unfold hdr_of, mbap. cbn [unpack_go fwidth firstn skipn h_tid h_pid h_len h_uid].
  now rewrite !be16_unpack1_H, u8_unpack1_B by assumption.
Qed.

Lemma tcp_deliver_justified st st1 :
  t_check tcp st = Ok (st1, true) -> wfb (firstn 7 (t_buf st)) = true ->
  tcp_justified (t_buf st) (t_deliv tcp (t_getframe tcp st1) (t_hdr st1)).
Proof.
  intros Hc Hw7.
  assert (Hr : t_isready tcp st = true) by (revert Hc; unfold t_check; now destruct (t_isready tcp st)).
  destruct (tcp_check_gate st st1 Hc) as (_ & Hh1 & Hlen & _ & Hgl & Hsplit).
  rewrite deliv_eq. split; cbn [d_pdu d_tid d_pid d_uid]; [lia|]. exists [], (t_buf (t_advance tcp st1)).
  rewrite spec_adu_tcp_mbap. replace (Z.of_nat (length (t_getframe tcp st1)) + 1) with (h_len (t_hdr st1)) by lia.
  rewrite Hh1, mbap_hdr_of; [now rewrite <- app_assoc| |exact Hw7].
  apply firstn_length_le. rewrite ready_eq in Hr. lia.
Qed.

Theorem tcp_loop_gate dec units single : forall fuel st st' ds o,
  wfb (t_buf st) = true ->
  t_loop base tcp dec fuel units single st = (st', ds, o) ->
  Forall (fun d => tcp_justified (t_buf st) d /\ is_msg (dec (d_pdu d)) = true) ds.
Proof.
  induction fuel as [|fuel IH]; intros st st' ds o Hw H; cbn [t_loop] in H.
  { injection H as _ <- _. constructor. }
  destruct (t_isready tcp st) eqn:Hr; [|injection H as _ <- _; constructor].
  destruct (t_check tcp st) as [[st1 [|]]|x] eqn:Hc; [| |injection H as _ <- _; constructor].
  2:{ (* no frame yet: wait, or resetFrame and an empty buffer *)
      destruct (beval _ (t_wait tcp)); [injection H as _ <- _; constructor|].
      destruct fuel; cbn in H; injection H as _ <- _; constructor. }
  pose proof (tcp_deliver_justified st st1 Hc) as Hj.
  destruct (tcp_check_gate st st1 Hc) as (_ & _ & _ & _ & _ & Hsplit).
  rewrite Hsplit, !wfb_app in Hw. apply andb_true_iff in Hw as [Hw7 Hw]. apply andb_true_iff in Hw as [_ Hwa].
  (* what the rest of the loop delivers lies behind this frame *)
  assert (Hrest : forall s2 d2 o2, t_loop base tcp dec fuel units single (t_advance tcp st1) = (s2, d2, o2) ->
            Forall (fun d => tcp_justified (t_buf st) d /\ is_msg (dec (d_pdu d)) = true) d2).
  { intros s2 d2 o2 Er. eapply Forall_impl; [|exact (IH _ _ _ _ Hwa Er)].
    intros d [Hd Hm]. split; [|exact Hm]. rewrite Hsplit, !app_assoc. apply tcp_justified_app_l, Hd. }
  destruct (validate_unit base units single _) as [[|]|x]; [| exact (Hrest _ _ _ H) | injection H as _ <- _; constructor].
  unfold t_process in H. cbv beta iota zeta in H.
  destruct (dec (t_getframe tcp st1)) as [fc| |x] eqn:Hd; try (injection H as _ <- _; constructor).
  cbn [andb] in H. destruct (t_loop _ _ _ fuel _ _ (t_advance tcp st1)) as [[s2 d2] o2] eqn:Er.
  injection H as _ <- _. constructor; [|exact (Hrest _ _ _ eq_refl)].
  split; [exact (Hj Hw7)|]. rewrite deliv_eq. cbn [d_pdu]. now rewrite Hd.
Qed.

Theorem tcp_recv_gate_msgs dec c st chunk st' ds o :
  wfb (t_buf st) = true -> wfb chunk = true ->
  t_recv base tcp dec c st chunk = (st', ds, o) ->
  Forall (fun d => tcp_justified (t_buf st ++ chunk) d /\ is_msg (dec (d_pdu d)) = true) ds.
Proof. unfold t_recv. intros H1 H2. apply tcp_loop_gate. cbn [t_buf]. now rewrite wfb_app, H1, H2. Qed.

Theorem tcp_recv_gate dec c st chunk st' ds o :
  wfb (t_buf st) = true -> wfb chunk = true ->
  t_recv base tcp dec c st chunk = (st', ds, o) ->
  Forall (tcp_justified (t_buf st ++ chunk)) ds.
Proof.
  intros H1 H2 H. eapply Forall_impl; [|exact (tcp_recv_gate_msgs _ _ _ _ _ _ _ H1 H2 H)]. now intros d [Hd _].
Qed.
