(* The datastore model of Store.v (with the generated arithmetic GenStore.code) refines the abstract
   Modbus data model of ExecSpec.v.  [abs] is the abstraction function: protocol address k of table t
   is the cell k + off of the block behind t's slot (off = 1 unless zero mode). *)
From PM.theories Require Import Base Store ExecSpec.
From PM.Generated Require Import GenStore.
From PM.proofs Require Import Base_proofs Store_proofs.
Open Scope string_scope.
Open Scope list_scope.
Open Scope Z_scope.

Definition tbl_letter (t : tbl) : string :=
  match t with Coils => "c" | Discrete => "d" | Holding => "h" | Input => "i" end.

(* table selected by a function code, per the Modbus data model *)
Definition fx_tbl (fx : Z) : option tbl :=
  if (fx =? 1) || (fx =? 5) || (fx =? 15) then Some Coils
  else if fx =? 2 then Some Discrete
  else if fx =? 4 then Some Input
  else if (fx =? 3) || (fx =? 6) || (fx =? 16) || (fx =? 22) || (fx =? 23) then Some Holding
  else None.

Definition slot_of (c : slavectx) (t : tbl) : nat :=
  match assoc_str (cx_slots c) (tbl_letter t) with Some i => i | None => O end.

(* every table has a slot pointing at an existing block (ModbusSlaveContext always has) *)
Definition inv (c : slavectx) : Prop :=
  forall t, exists i, assoc_str (cx_slots c) (tbl_letter t) = Some i /\ (i < length (cx_blocks c))%nat.

Definition blk_cell (b : block) (k : Z) : option Z :=
  match b with BSeq s => seq_cell s k | BSp s => sp_cell s k end.

(* the end-to-end files, which also see CorrPdu.abs, qualify this name *)
Definition abs (c : slavectx) : astate :=
  {| a_slot := slot_of c;
     a_cell := fun i k => blk_cell (nth_block c i) (k + cx_off c) |}.

Lemma aeq_refl s : aeq s s.
Proof. split; reflexivity. Qed.

Lemma aeq_sym s s' : aeq s s' -> aeq s' s.
Proof. intros [H1 H2]. split; intros; symmetry; auto. Qed.

Lemma aeq_trans s1 s2 s3 : aeq s1 s2 -> aeq s2 s3 -> aeq s1 s3.
Proof. intros [A1 A2] [B1 B2]. split; intros; [rewrite A1; apply B1 | rewrite A2; apply B2]. Qed.

Lemma forallb_ext {A} (f g : A -> bool) l : (forall x, f x = g x) -> forallb f l = forallb g l.
Proof. intros H. induction l as [|x l IH]; cbn; [reflexivity|]. rewrite H, IH. reflexivity. Qed.

Lemma cell_aeq s s' t k : aeq s s' -> cell s t k = cell s' t k.
Proof. intros [H1 H2]. unfold cell. rewrite H1, H2. reflexivity. Qed.

Lemma range_ok_aeq s s' t a n : aeq s s' -> range_ok s t a n = range_ok s' t a n.
Proof.
  intros H. unfold range_ok. apply forallb_ext. intros k. rewrite (cell_aeq s s' t k H). reflexivity.
Qed.

Lemma read_aeq s s' t a n : aeq s s' -> read s t a n = read s' t a n.
Proof.
  intros H. unfold read. apply map_ext. intros k. rewrite (cell_aeq s s' t k H). reflexivity.
Qed.

Lemma write_aeq s s' t a vs : aeq s s' -> aeq (write s t a vs) (write s' t a vs).
Proof.
  intros [H1 H2]. split; cbn; intros.
  - apply H1.
  - rewrite H1, H2. reflexivity.
Qed.

Lemma fx_tbl_mapper fx t :
  fx_tbl fx = Some t -> assoc_z (c_fx_mapper GenStore.code) fx = Some (tbl_letter t).
Proof.
  unfold fx_tbl. intros H.
  (* try the ten mapped codes in turn *)
  repeat match type of H with context [fx =? ?n] =>
    destruct (Z.eqb_spec fx n) as [->|_]; [injection H as <-; reflexivity|cbn [orb] in H] end.
  discriminate H.
Qed.

Lemma block_idx_ok c fx t :
  inv c -> fx_tbl fx = Some t ->
  cx_block_idx GenStore.code c fx = Ok (slot_of c t) /\ (slot_of c t < length (cx_blocks c))%nat.
Proof.
  intros Hi Hf. unfold cx_block_idx, slot_of. rewrite (fx_tbl_mapper fx t Hf).
  destruct (Hi t) as (i & Hs & Hl). rewrite Hs.
  apply Nat.ltb_lt in Hl as Hl'. rewrite Hl'. split; [reflexivity|exact Hl].
Qed.

Lemma forallb_zrange_true P lo n :
  (forall i, 0 <= i < Z.of_nat n -> P (lo + i) = true) -> forallb P (zrange lo n) = true.
Proof. apply forallb_zrange. Qed.

Lemma list_ext_nth {A} (l1 l2 : list A) :
  length l1 = length l2 -> (forall i, (i < length l1)%nat -> nth_error l1 i = nth_error l2 i) -> l1 = l2.
Proof.
  revert l2. induction l1 as [|x l1 IH]; intros [|y l2] Hl H; try discriminate; [reflexivity|].
  pose proof (H O ltac:(cbn; lia)) as H0. cbn in H0. injection H0 as <-.
  f_equal. apply IH; [cbn in Hl; lia|]. intros i Hi. apply (H (S i)). cbn. lia.
Qed.

Lemma map_some_inv (vs : list Z) (f : Z -> option Z) ks :
  map Some vs = map f ks -> vs = map (fun k => match f k with Some v => v | None => 0 end) ks.
Proof.
  revert ks. induction vs as [|v vs IH]; intros [|k ks] H; try discriminate; [reflexivity|].
  cbn in H. injection H as H0 H. cbn. rewrite <- H0. cbn. f_equal. apply IH. exact H.
Qed.

Lemma nth_set_nth {A} (l : list A) i j v d :
  (i < length l)%nat -> nth j (set_nth l i v) d = if Nat.eqb j i then v else nth j l d.
Proof.
  revert i j. induction l as [|x l IH]; intros i j Hi; [cbn in Hi; lia|].
  destruct i, j; cbn [set_nth nth Nat.eqb]; try reflexivity.
  apply IH. cbn in Hi. lia.
Qed.

Lemma set_nth_length {A} (l : list A) i v : length (set_nth l i v) = length l.
Proof. revert i. induction l as [|x l IH]; intros [|i]; cbn; auto. Qed.

Lemma map_zrange_shift {B} (g : Z -> B) d a m :
  map (fun k => g (k + d)) (zrange a m) = map g (zrange (a + d) m).
Proof.
  revert a. induction m as [|m IH]; intros a; [reflexivity|].
  cbn [zrange map]. rewrite IH. do 3 f_equal. lia.
Qed.

Lemma forallb_zrange_shift (g : Z -> bool) d a m :
  forallb (fun k => g (k + d)) (zrange a m) = forallb g (zrange (a + d) m).
Proof.
  revert a. induction m as [|m IH]; intros a; [reflexivity|].
  cbn [zrange forallb]. rewrite IH. do 3 f_equal. lia.
Qed.

Lemma blk_cell_iter b k : blk_cell b k = d_get (blk_iter b) k.
Proof. destruct b; [symmetry; apply seq_iter_get|reflexivity]. Qed.

Lemma range_ok_abs c t a n :
  range_ok (abs c) t a n =
  forallb (d_mem (blk_iter (nth_block c (slot_of c t)))) (zrange (a + cx_off c) (Z.to_nat n)).
Proof.
  rewrite <- forallb_zrange_shift. apply forallb_ext. intros k.
  unfold cell, abs. cbn [a_slot a_cell]. rewrite blk_cell_iter. reflexivity.
Qed.

Lemma read_abs c t a n :
  read (abs c) t a n =
  map (fun k => match d_get (blk_iter (nth_block c (slot_of c t))) k with Some v => v | None => 0 end)
      (zrange (a + cx_off c) (Z.to_nat n)).
Proof.
  rewrite <- map_zrange_shift. apply map_ext. intros k.
  unfold cell, abs. cbn [a_slot a_cell]. rewrite blk_cell_iter. reflexivity.
Qed.

Theorem cx_validate_abs c fx t a n :
  inv c -> fx_tbl fx = Some t -> 1 <= n ->
  cx_validate GenStore.code c fx a n = Ok (range_ok (abs c) t a n).
Proof.
  intros Hi Hf Hn. rewrite cx_validate_offset. destruct (block_idx_ok c fx t Hi Hf) as [-> _].
  cbn [bind]. rewrite blk_validate_mem, range_ok_abs by exact Hn. reflexivity.
Qed.

Theorem cx_get_abs c fx t a n :
  inv c -> fx_tbl fx = Some t -> 1 <= n -> range_ok (abs c) t a n = true ->
  cx_get GenStore.code c fx a n = Ok (read (abs c) t a n).
Proof.
  intros Hi Hf Hn Hr. rewrite cx_get_offset. destruct (block_idx_ok c fx t Hi Hf) as [-> _].
  cbn [bind]. rewrite range_ok_abs, <- blk_validate_mem in Hr by exact Hn.
  destruct (blk_get_cells _ _ _ Hn Hr) as (vs & -> & Hvs).
  rewrite read_abs. f_equal. apply map_some_inv, Hvs.
Qed.

Theorem cx_set_abs c fx t a vs :
  inv c -> fx_tbl fx = Some t -> vs <> [] -> range_ok (abs c) t a (Z.of_nat (length vs)) = true ->
  exists c', cx_set GenStore.code c fx a vs = Ok c' /\ inv c' /\ aeq (abs c') (write (abs c) t a vs).
Proof.
  intros Hi Hf Hne Hr. rewrite cx_set_offset. destruct (block_idx_ok c fx t Hi Hf) as [-> Hlt].
  cbn [bind]. eexists. split; [reflexivity|].
  assert (Hn : 1 <= Z.of_nat (length vs)) by (destruct vs; [congruence|cbn [length]; lia]).
  rewrite range_ok_abs, <- blk_validate_mem in Hr by exact Hn.
  split.
  - intros t'. destruct (Hi t') as (i & Hs & Hl). exists i. cbn [cx_slots cx_blocks].
    rewrite set_nth_length. auto.
  - split; [reflexivity|]. intros i k. unfold abs, write, cx_off. cbn [a_slot a_cell cx_zero].
    unfold nth_block at 1. cbn [cx_blocks]. rewrite nth_set_nth by exact Hlt.
    fold (cx_off c). unfold slot_of at 2. fold (slot_of c t).
    destruct (Nat.eqb i (slot_of c t)) eqn:Ei; [|reflexivity].
    apply Nat.eqb_eq in Ei. subst i.
    rewrite !blk_cell_iter, blk_set_get by exact Hr.
    replace ((a + cx_off c <=? k + cx_off c) && (k + cx_off c <? a + cx_off c + Z.of_nat (length vs)))
      with ((a <=? k) && (k <? a + Z.of_nat (length vs))) by lia.
    replace (k + cx_off c - (a + cx_off c)) with (k - a) by lia. reflexivity.
Qed.

Lemma range_ok_write s t a vs t' a' n :
  range_ok s t a (Z.of_nat (length vs)) = true ->
  range_ok (write s t a vs) t' a' n = range_ok s t' a' n.
Proof.
  intros Hr. unfold range_ok. apply forallb_ext. intros k. unfold cell, write. cbn [a_slot a_cell].
  destruct (Nat.eqb (a_slot s t') (a_slot s t)) eqn:Eb; [|reflexivity].
  destruct ((a <=? k) && (k <? a + Z.of_nat (length vs))) eqn:E; [|reflexivity].
  apply Nat.eqb_eq in Eb. rewrite Eb.
  unfold range_ok in Hr. rewrite forallb_zrange in Hr. rewrite Nat2Z.id in Hr.
  specialize (Hr (k - a) ltac:(lia)). replace (a + (k - a)) with k in Hr by lia.
  unfold cell in Hr. rewrite Hr.
  destruct (nth_error vs (Z.to_nat (k - a))) eqn:En; [reflexivity|].
  apply nth_error_None in En. lia.
Qed.

Lemma read_write_same s t a vs :
  read (write s t a vs) t a (Z.of_nat (length vs)) = vs.
Proof.
  unfold read. rewrite Nat2Z.id. apply list_ext_nth.
  - rewrite map_length, zrange_length. reflexivity.
  - intros i Hi. rewrite map_length, zrange_length in Hi.
    rewrite nth_error_map, nth_error_zrange by exact Hi. cbn [option_map].
    unfold cell, write. cbn [a_slot a_cell]. rewrite Nat.eqb_refl.
    replace ((a <=? a + Z.of_nat i) && (a + Z.of_nat i <? a + Z.of_nat (length vs))) with true by lia.
    replace (Z.to_nat (a + Z.of_nat i - a)) with i by lia.
    destruct (nth_error vs i) eqn:E; [reflexivity|]. apply nth_error_None in E. lia.
Qed.
