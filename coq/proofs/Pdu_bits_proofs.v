(* Pdu_bits_proofs.v — utilities.pack_bitstring / unpack_bitstring (modelled literally in Pdu.v)
   equal the specification's LSB-first packing with zero padding, for bit lists and byte strings
   of every length.  Both sides work on groups of 8 bits: [list8_ind] is the induction, the three
   behaviours of [spec_pack_bits] (nothing, a last short group, a full group) are its cases. *)
From PM.theories Require Import Base PduSpec Pdu.
From PM.proofs Require Import Base_proofs.
From Coq Require Import ZifyBool.
Open Scope list_scope.
Open Scope Z_scope.
(* lia with / and mod by numerals *)
Ltac Zify.zify_post_hook ::= Z.to_euclidean_division_equations.

Lemma land1_testbit0 a : (N.land a 1 =? 1)%N = N.testbit a 0.
Proof.
  rewrite N.bit0_eqb. change 1%N with (N.ones 1) at 1. rewrite N.land_ones. reflexivity.
Qed.

Lemma byte_bits_loop_8 v : byte_bits_loop 8 v = byte_bits v.
Proof.
  unfold byte_bits. cbn [byte_bits_loop].
  rewrite !N.shiftr_shiftr. rewrite !land1_testbit0.
  rewrite !N.shiftr_spec'. reflexivity.
Qed.

Theorem py_unpack_spec bs : py_unpack_bitstring bs = spec_unpack_bits bs.
Proof. apply flat_map_ext, byte_bits_loop_8. Qed.

Lemma spec_unpack_length bs : length (spec_unpack_bits bs) = (8 * length bs)%nat.
Proof.
  induction bs as [|b t IH]; [reflexivity|].
  unfold spec_unpack_bits in *. cbn [flat_map]. rewrite app_length, IH. cbn [byte_bits length]. lia.
Qed.

Lemma spec_pack_group g t : length g = 8%nat -> spec_pack_bits (g ++ t) = bits_value g :: spec_pack_bits t.
Proof. intros H. do 8 (destruct g as [|? g]; [discriminate|]). destruct g; [reflexivity|discriminate]. Qed.

Lemma spec_pack_short g : (0 < length g < 8)%nat -> spec_pack_bits g = [bits_value g].
Proof. intros H. do 8 (destruct g as [|? g]; [cbn in H; try lia; reflexivity|]). cbn in H. lia. Qed.

Lemma testbit_bits_value g k : N.testbit (bits_value g) (N.of_nat k) = nth k g false.
Proof.
  revert k. induction g as [|b t IH]; intros k; [destruct k; apply N.bits_0|].
  cbn [bits_value]. rewrite N.add_comm. change (if b then 1%N else 0%N) with (N.b2n b).
  destruct k; [apply N.testbit_0_r|]. rewrite Nat2N.inj_succ, N.testbit_succ_r. apply IH.
Qed.

Lemma byte_bits_value g : (length g <= 8)%nat -> byte_bits (bits_value g) = g ++ repeat false (8 - length g).
Proof.
  intros H. change (byte_bits (bits_value g)) with (map (fun k => N.testbit (bits_value g) (N.of_nat k)) (seq 0 8)).
  rewrite (map_ext _ _ (testbit_bits_value g)).
  do 8 (destruct g as [|? g]; [reflexivity|]). destruct g; [reflexivity|cbn in H; lia].
Qed.

Lemma bits_value_lt bs : (length bs <= 8)%nat -> (bits_value bs < 256)%N.
Proof.
  intros H.
  assert (G : forall k l, (length l <= k)%nat -> (bits_value l < 2 ^ N.of_nat k)%N).
  { induction k as [|k IH]; intros l Hl.
    - destruct l; [cbn; lia|cbn in Hl; lia].
    - destruct l as [|b l]; [cbn [bits_value]; apply N.neq_0_lt_0, N.pow_nonzero; lia|].
      cbn [bits_value]. rewrite Nat2N.inj_succ, N.pow_succ_r'.
      specialize (IH l ltac:(cbn in Hl; lia)). destruct b; lia. }
  apply (G 8%nat bs H).
Qed.

Lemma bits_value_pad g k : bits_value (g ++ repeat false k) = bits_value g.
Proof.
  induction g as [|b t IH]; cbn [app bits_value]; [|now rewrite IH].
  induction k as [|k IHk]; cbn [repeat bits_value]; [|rewrite IHk]; reflexivity.
Qed.

(* the statement after the loop of pack_bitstring *)
Definition pack_tail (st : bytes * N * N) : bytes :=
  let '(ret, i, packed) := st in
  if ((0 <? i) && (i <? 8))%N then ret ++ [N.shiftr packed (7 - i)] else ret.

Ltac all_bools := repeat match goal with b : bool |- _ => destruct b end.

Lemma chunk8 g t ret : length g = 8%nat ->
  py_pack_loop (g ++ t) ret 0%N 0%N = py_pack_loop t (ret ++ [bits_value g]) 0%N 0%N.
Proof.
  intros H. do 8 (destruct g as [|? g]; [discriminate|]). destruct g; [|discriminate]. all_bools; reflexivity. (* 256 closed cases *)
Qed.

Lemma pack_loop_short g : forall ret i packed, (N.to_nat i + length g < 8)%nat ->
  exists p, py_pack_loop g ret i packed = (ret, (i + N.of_nat (length g))%N, p).
Proof.
  induction g as [|b t IH]; intros ret i packed H; cbn [py_pack_loop length] in *.
  - exists packed. now rewrite N.add_0_r.
  - replace (i + 1 =? 8)%N with false by lia.
    destruct (IH ret (i + 1)%N (N.shiftr (if b then packed + 128 else packed) 1)%N) as [p ->]; [lia|].
    exists p. do 2 f_equal. lia.
Qed.

(* the final statement of pack_bitstring does what feeding the loop the [k] zero bits missing from the group does *)
Lemma pack_loop_flush k : forall ret i packed, (0 < k)%nat -> (N.to_nat i + k = 8)%nat ->
  py_pack_loop (repeat false k) ret i packed = (ret ++ [N.shiftr packed (7 - i)], 0%N, 0%N).
Proof.
  induction k as [|k IH]; intros ret i packed Hk Hi; [lia|]. cbn [repeat py_pack_loop].
  destruct k as [|k].
  - replace (i + 1 =? 8)%N with true by lia. replace (7 - i)%N with 0%N by lia. reflexivity.
  - replace (i + 1 =? 8)%N with false by lia. rewrite IH by lia. rewrite N.shiftr_shiftr.
    now replace (1 + (7 - (i + 1)))%N with (7 - i)%N by lia.
Qed.

Lemma pack_loop_app a : forall b ret i packed,
  py_pack_loop (a ++ b) ret i packed = let '(r, j, p) := py_pack_loop a ret i packed in py_pack_loop b r j p.
Proof.
  induction a as [|x a IH]; intros b ret i packed; [reflexivity|].
  cbn [app py_pack_loop]. destruct (i + 1 =? 8)%N; apply IH.
Qed.

Lemma pack_loop_spec : forall t ret, pack_tail (py_pack_loop t ret 0%N 0%N) = ret ++ spec_pack_bits t.
Proof.
  apply (list8_ind (fun t => forall ret, pack_tail (py_pack_loop t ret 0%N 0%N) = ret ++ spec_pack_bits t)).
  - intros ret. cbn. now rewrite app_nil_r.
  - intros g H ret. rewrite spec_pack_short by exact H. set (k := (8 - length g)%nat).
    assert (C := chunk8 (g ++ repeat false k) [] ret). rewrite app_nil_r, pack_loop_app in C.
    destruct (pack_loop_short g ret 0%N 0%N) as [p E]; [cbn; lia|]. rewrite E in *.
    rewrite pack_loop_flush, bits_value_pad in C by (subst k; lia).
    specialize (C ltac:(rewrite app_length, repeat_length; subst k; lia)). injection C as C.
    cbn [pack_tail]. now replace ((0 <? 0 + N.of_nat (length g)) && (0 + N.of_nat (length g) <? 8))%N with true by lia.
  - intros g t H IH ret. rewrite chunk8, IH, spec_pack_group, <- app_assoc by exact H. reflexivity.
Qed.

Theorem py_pack_spec bits : py_pack_bitstring bits = spec_pack_bits bits.
Proof. exact (pack_loop_spec bits []). Qed.

Lemma unpack_pack_pad : forall t,
  exists pad, spec_unpack_bits (spec_pack_bits t) = t ++ pad /\ (length pad < 8)%nat /\ forallb negb pad = true.
Proof.
  apply list8_ind.
  - exists []. repeat split. cbn. lia.
  - intros g H. exists (repeat false (8 - length g)).
    rewrite spec_pack_short by exact H. unfold spec_unpack_bits. cbn [flat_map].
    rewrite app_nil_r, byte_bits_value, repeat_length by lia. repeat split; [lia|].
    apply forallb_forall. intros x Hx. now rewrite (repeat_spec _ _ _ Hx).
  - intros g t H (pad & Hp & Hl & Hz). exists pad. repeat split; [|exact Hl|exact Hz].
    rewrite spec_pack_group by exact H. unfold spec_unpack_bits in *. cbn [flat_map].
    rewrite byte_bits_value, Hp, H by lia. cbn [Nat.sub repeat]. now rewrite app_nil_r, app_assoc.
Qed.

Lemma bits_upto_pad_app t pad :
  (length pad < 8)%nat -> forallb negb pad = true -> bits_upto_pad t (t ++ pad) = true.
Proof.
  intros Hl Hz. induction t as [|x t IH]; cbn [bits_upto_pad app].
  - destruct pad; cbn [bits_upto_pad]; rewrite ?Hz; rewrite ?andb_true_r.
    + reflexivity.
    + apply Nat.ltb_lt. exact Hl.
  - rewrite IH. unfold beqb. rewrite Bool.eqb_reflx. reflexivity.
Qed.

Theorem unpack_pack_upto_pad t : bits_upto_pad t (spec_unpack_bits (spec_pack_bits t)) = true.
Proof.
  destruct (unpack_pack_pad t) as (pad & Hp & Hl & Hz).
  rewrite Hp. apply bits_upto_pad_app; assumption.
Qed.

Theorem firstn_unpack_pack t : firstn (length t) (spec_unpack_bits (spec_pack_bits t)) = t.
Proof. destruct (unpack_pack_pad t) as (pad & -> & _). now apply firstn_app_exact. Qed.

Lemma spec_pack_bits_props : forall t,
  wfb (spec_pack_bits t) = true /\ Z.of_nat (length (spec_pack_bits t)) = bit_byte_count (Z.of_nat (length t)).
Proof.
  unfold bit_byte_count. apply list8_ind.
  - split; reflexivity.
  - intros g H. rewrite spec_pack_short by exact H. cbn [length]. split; [|lia].
    apply wfb_cons. split; [apply bits_value_lt; lia|reflexivity].
  - intros g t H [Hw Hl]. rewrite spec_pack_group, app_length by exact H. cbn [length]. split; [|lia].
    apply wfb_cons. split; [apply bits_value_lt; lia|exact Hw].
Qed.

Theorem spec_pack_bits_wfb t : wfb (spec_pack_bits t) = true.
Proof. apply spec_pack_bits_props. Qed.

Theorem spec_pack_bits_length t :
  Z.of_nat (length (spec_pack_bits t)) = bit_byte_count (Z.of_nat (length t)).
Proof. apply spec_pack_bits_props. Qed.

Lemma bits_value_byte_bits b : (b < 256)%N -> bits_value (byte_bits b) = b.
Proof.
  intros H. apply N.bits_inj. intros n. rewrite <- (N2Nat.id n), testbit_bits_value.
  generalize (N.to_nat n). intros k. do 8 (destruct k as [|k]; [reflexivity|]).
  rewrite nth_overflow by (cbn [byte_bits length]; lia).
  rewrite <- (N.mod_small b (2 ^ 8)) by exact H. symmetry. apply N.mod_pow2_bits_high. lia.
Qed.

Lemma pack_unpack bs : wfb bs = true -> spec_pack_bits (spec_unpack_bits bs) = bs.
Proof.
  induction bs as [|b t IH]; intros H; [reflexivity|].
  apply wfb_cons in H as [Hb Ht].
  unfold spec_unpack_bits in *. cbn [flat_map].
  rewrite spec_pack_group, bits_value_byte_bits, IH by (reflexivity || assumption). reflexivity.
Qed.
