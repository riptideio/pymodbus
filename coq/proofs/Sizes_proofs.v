(* Sizes_proofs.v — lemmas about the reply-size model instantiated with the GENERATED
   expression trees of Generated/GenSizes.v (what /repo's source says).  A changed
   constant or operator in a get_response_pdu_size body or in transaction.py makes the
   evaluation steps below ([reflexivity], [sz_simpl]) or the arithmetic after them fail. *)
From PM.theories Require Import Base Expr Sizes.
From PM.Generated Require Import GenSizes.
From PM.proofs Require Import Base_proofs.
Open Scope string_scope.
Open Scope list_scope.
Open Scope Z_scope.

(* ceil8 is a quotient: lia has to see through n / 8 and n mod 8 *)
Ltac Zify.zify_post_hook ::= Z.to_euclidean_division_equations.

(* Runs the generated expressions on symbolic attributes.  The integer operators and tests stay folded for lia; a test
   on a variable (p =? 0) has to survive, so Z.eqb is not unfolded, and the tests between two numerals that the tables
   leave behind (3 =? -1) are evaluated one by one. *)
Ltac sz_simpl :=
  cbv -[Z.add Z.sub Z.mul Z.div Z.modulo Z.opp Z.eqb Z.leb Z.ltb Z.geb Z.gtb Z.min Z.max
        b2z z2b negb];
  rewrite ?z2b_b2z;
  repeat match goal with
  | |- context [Z.eqb ?a ?b] =>
      let v := eval vm_compute in (Z.eqb a b) in
      first [constr_eq v true | constr_eq v false]; change (Z.eqb a b) with v
  end;
  cbn [negb]; cbv beta iota.

Lemma if_nonzero {A} x (a b : A) : x <> 0 -> (if x =? 0 then a else b) = b.
Proof. intros H. now destruct (Z.eqb_spec x 0). Qed.

(* count // 8, plus one `if count % 8`: the second form is the shape of the generated body *)
Lemma ceil8_floor n : n / 8 + (if negb (n mod 8 =? 0) then 1 else 0) = ceil8 n.
Proof. unfold ceil8. destruct (n mod 8 =? 0) eqn:E; cbn [negb]; lia. Qed.

Lemma ceil8_cond n : (if negb (n mod 8 =? 0) then n / 8 + 1 else n / 8) = ceil8 n.
Proof. rewrite <- ceil8_floor. destruct (negb (n mod 8 =? 0)); lia. Qed.

Lemma predicted_of_body cls e a :
  lookup cls pdu_size_table = Some e -> predicted_pdu_size cls a = Some (eval (req_env cls a) e).
Proof. unfold predicted_pdu_size. now intros ->. Qed.

Lemma eval_read_bits rho : eval rho sz_ReadBitsRequestBase = 1 + 1 + ceil8 (rho "self.count").
Proof. cbn [eval sz_ReadBitsRequestBase eval_bin eval_cmp]. now rewrite z2b_b2z, ceil8_cond. Qed.

Lemma read_bits_size cls n :
  cls = "ReadCoilsRequest" \/ cls = "ReadDiscreteInputsRequest" ->
  predicted_pdu_size cls (attrs n 0 MNone) = Some (1 + 1 + ceil8 n).
Proof.
  intros [-> | ->]; rewrite (predicted_of_body _ sz_ReadBitsRequestBase) by reflexivity; now rewrite eval_read_bits.
Qed.

(* the request class has a get_response_pdu_size at all *)
Definition predicting (q : request) : bool :=
  match q with QMaskWrite => false | _ => true end.

(* the requests of the property's quantifier on which the prediction is wrong *)
Definition known_defect (q : request) : bool :=
  match q with QPlusGet | QPlusClear | QDiagListenOnly => true | _ => false end.

Lemma simple_subs_checked :
  forallb (fun s => option_eqb Z.eqb (predicted_pdu_size (class_of (QDiagSimple s)) (attrs_of (QDiagSimple s)))
                                     (spec_response_pdu_len (QDiagSimple s))) simple_subs = true.
Proof. vm_compute. reflexivity. Qed.

Lemma simple_subs_size s : In s simple_subs ->
  predicted_pdu_size (class_of (QDiagSimple s)) (attrs_of (QDiagSimple s)) = spec_response_pdu_len (QDiagSimple s).
Proof.
  intros H. pose proof (proj1 (forallb_forall _ simple_subs) simple_subs_checked s H) as P. cbv beta in P.
  exact (option_eqb_Z _ _ P).
Qed.

Lemma pdu_size_all q :
  request_ok q = true -> known_defect q = false -> predicting q = true ->
  predicted_pdu_size (class_of q) (attrs_of q) = spec_response_pdu_len q.
Proof.
  (* all bodies but the read-bits one are, as they stand, the expressions of the spec *)
  intros Hok Hd Hp. destruct q; try discriminate Hd; try discriminate Hp; try reflexivity.
  1, 2: apply read_bits_size; auto.
  unfold request_ok in Hok. apply existsb_exists in Hok as (s & Hin & E). replace sub with s by lia.
  exact (simple_subs_size s Hin).
Qed.

(* the prediction's side effect on the request object *)
Lemma diag_prediction_rewrites_message :
  message_after "ReturnDiagnosticRegisterRequest" (MInt 0) = MList 1
  /\ message_after "ReadCoilsRequest" MNone = MNone.
Proof. split; reflexivity. Qed.

(* execute() uses the request's prediction: the framer is not in predict_excluded (TLS included) *)
Definition serial (f : framing) : bool := match f with FSocket => false | _ => true end.

Lemma adu_overhead f p :
  serial f = true -> p <> 0 ->
  expected_response_length f (Some p) = Some (spec_adu_len f p).
Proof.
  intros Hs Hp. destruct f; try discriminate Hs; sz_simpl.
  (* ASCII tests and adds the doubled size (factor) *)
  all: rewrite if_nonzero by lia; f_equal; lia.
Qed.

Lemma response_length_all f p : calc_response_length f p = Some (base_adu_size f + p).
Proof. destruct f; reflexivity. Qed.

Lemma base_sizes :
  base_adu_size FSocket = 7 /\ base_adu_size FRtu = 3 /\ base_adu_size FAscii = 7
  /\ base_adu_size FBinary = 5 /\ base_adu_size FTls = 0.
Proof. repeat split. Qed.

Lemma plan_eq (a b c a' b' c' : Z) :
  a = a' -> b = b' -> c = c' ->
  ([Some a; Some b], RecvDone (Some c)) = ([Some a'; Some b'], RecvDone (Some c')).
Proof. intros; subst; reflexivity. Qed.

(* every framing but TLS has a fixed first read of m bytes (min_size_table); the second read follows from the
   function code seen in the first *)
Lemma recv_plan_table f m exp avail fc mbap :
  lookup (framer_name f) min_size_table = Some m -> m <= avail ->
  recv_plan f exp avail fc mbap =
    match (if fc <? 128 then match f with FSocket => Some (socket_hsize + (mbap - 1)) | _ => exp end
           else Some (spec_adu_len f exception_pdu_len)) with
    | Some e => ([Some m; Some (e - m)], RecvDone (Some (e - m + m)))
    | None => ([Some m; None], RecvDone None)
    end.
Proof.
  intros Hm Ha. destruct f; try discriminate Hm; injection Hm as <-; sz_simpl;
    rewrite Z.min_l, Z.max_l by lia; cbn [Z.eqb Pos.eqb negb]; destruct (fc <? 128); reflexivity.
Qed.

Definition stream_framing (f : framing) : bool :=
  match f with FRtu | FAscii | FBinary => true | _ => false end.

Lemma spec_adu_len_mono f p q : p <= q -> spec_adu_len f p <= spec_adu_len f q.
Proof. destruct f; unfold spec_adu_len; lia. Qed.

Lemma recv_plan_stream f exp avail fc mbap :
  stream_framing f = true -> spec_adu_len f 1 <= avail ->
  exists m, 0 < m <= spec_adu_len f 1 /\
    recv_plan f exp avail fc mbap =
      match (if fc <? 128 then exp else Some (spec_adu_len f exception_pdu_len)) with
      | Some e => ([Some m; Some (e - m)], RecvDone (Some (e - m + m)))
      | None => ([Some m; None], RecvDone None)
      end.
Proof.
  (* the first-read sizes of min_size_table are written out, so that a change of the table is noticed here *)
  intros Hs Ha. destruct f; try discriminate Hs; [exists 2 | exists 5 | exists 3];
    (split; [|apply recv_plan_table; [reflexivity|]]); unfold spec_adu_len in *; lia.
Qed.

Lemma reads_exactly f p fc mbap :
  stream_framing f = true -> 1 <= p ->
  let pr := if fc <? 128 then p else exception_pdu_len in
  exists m r,
    recv_plan f (expected_response_length f (Some p)) (spec_adu_len f pr) fc mbap
      = ([Some m; Some r], RecvDone (Some (spec_adu_len f pr)))
    /\ 0 < m /\ 0 <= r /\ m + r = spec_adu_len f pr.
Proof.
  intros Hs Hp pr. assert (Hpr : 1 <= pr) by (subst pr; unfold exception_pdu_len; destruct (fc <? 128); lia).
  pose proof (spec_adu_len_mono f 1 pr Hpr) as Hle.
  destruct (recv_plan_stream f (expected_response_length f (Some p)) _ fc mbap Hs Hle) as (m & Hm & ->).
  rewrite adu_overhead by (destruct f; try discriminate; auto; lia).
  exists m, (spec_adu_len f pr - m). subst pr. destruct (fc <? 128); (split; [apply plan_eq|]; lia).
Qed.

Lemma spec_len_pos q p : request_ok q = true -> spec_response_pdu_len q = Some p -> 1 <= p.
Proof.
  intros Hok H.
  assert (Hinj : forall a : Z, Some a = Some p -> a = p) by (intros a E; congruence).
  destruct q; unfold spec_response_pdu_len, request_ok in *; try discriminate;
    apply Hinj in H; subst p; unfold ceil8; lia.
Qed.

Definition diag_row_ok (row : Z * string) : bool :=
  let q := diag_request (fst row) in
  String.eqb (class_of q) (snd row)
  && option_eqb String.eqb (diag_class (fst row)) (Some (snd row))
  && request_ok q
  && (known_defect q
      || option_eqb Z.eqb (predicted_pdu_size (snd row) (attrs_of q)) (spec_response_pdu_len q)).

Lemma diag_table_checked : forallb diag_row_ok diag_table = true /\ map fst diag_table = spec_diag_subs.
Proof. split; vm_compute; reflexivity. Qed.
