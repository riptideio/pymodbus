(* Crc_proofs.v — the table-driven computeCRC of utilities.py (model [py_crc], built from
   the regenerated constants) equals the bitwise CRC-16/Modbus of the serial line guide,
   byte-swapped, for every byte string.  The spec-side register is xor-linear and stays
   below 2^16; both facts are also what proofs/Crc_detect_proofs.v starts from. *)
From Coq Require Import ZifyBool.
From PM.theories Require Import Base Expr FrBCode Crc.
From PM.Generated Require Import GenFramerB.
From PM.proofs Require Import Base_proofs.
Open Scope list_scope.
Open Scope N_scope.

Definition mask (c : bool) : N := if c then crc_poly else 0.

Lemma crc_shift_alt s : crc_shift s = N.lxor (N.div2 s) (mask (N.odd s)).
Proof.
  unfold crc_shift, mask. rewrite N.div2_spec.
  destruct (N.odd s); [reflexivity | now rewrite N.lxor_0_r].
Qed.

Lemma mask_xorb a b : mask (xorb a b) = N.lxor (mask a) (mask b).
Proof. destruct a, b; reflexivity. Qed.

Lemma lxor_swap4 a b c d : N.lxor (N.lxor a b) (N.lxor c d) = N.lxor (N.lxor a c) (N.lxor b d).
Proof.
  rewrite !N.lxor_assoc. f_equal. rewrite <- !N.lxor_assoc. f_equal. apply N.lxor_comm.
Qed.

Lemma crc_shift_lxor x y : crc_shift (N.lxor x y) = N.lxor (crc_shift x) (crc_shift y).
Proof.
  rewrite !crc_shift_alt, Nxor_bit0, Nxor_div2, mask_xorb. apply lxor_swap4.
Qed.

Lemma iter_shift_lxor n : forall x y,
  iter_shift n (N.lxor x y) = N.lxor (iter_shift n x) (iter_shift n y).
Proof.
  induction n as [|n IH]; intros x y; simpl; [reflexivity|].
  now rewrite crc_shift_lxor, IH.
Qed.

Lemma lt_pow2_shiftr s n : s < 2 ^ n <-> N.shiftr s n = 0.
Proof.
  rewrite N.shiftr_div_pow2. symmetry. apply N.div_small_iff.
  apply N.pow_nonzero. discriminate.
Qed.

Lemma lxor_lt_pow2 a b n : a < 2 ^ n -> b < 2 ^ n -> N.lxor a b < 2 ^ n.
Proof.
  rewrite !lt_pow2_shiftr, N.shiftr_lxor. intros -> ->. reflexivity.
Qed.

Lemma lxor_lt16 a b : a < 65536 -> b < 65536 -> N.lxor a b < 65536.
Proof. apply (lxor_lt_pow2 a b 16). Qed.

Lemma div2_bound s : 2 * N.div2 s <= s.
Proof. pose proof (N.div2_odd s). destruct (N.odd s); simpl N.b2n in *; lia. Qed.

Lemma crc_shift_lt16 s : s < 65536 -> crc_shift s < 65536.
Proof.
  intros H. rewrite crc_shift_alt. apply lxor_lt16; [|now destruct (N.odd s)].
  pose proof (div2_bound s). lia.
Qed.

Lemma iter_shift_lt16 n : forall s, s < 65536 -> iter_shift n s < 65536.
Proof. induction n; intros s H; simpl; auto using crc_shift_lt16. Qed.

Lemma crc_byte_lt s b : s < 65536 -> b < 256 -> crc_byte s b < 65536.
Proof. intros Hs Hb. apply iter_shift_lt16, lxor_lt16; lia. Qed.

Lemma crc_reg_lt bs : forall s, s < 65536 -> wfb bs = true -> crc_reg s bs < 65536.
Proof.
  induction bs as [|b t IH]; intros s Hs Hw; [exact Hs|].
  apply wfb_cons in Hw as [Hb Ht]. cbn [crc_reg fold_left].
  apply IH; [apply crc_byte_lt; assumption | exact Ht].
Qed.

Lemma crc16_lt bs : wfb bs = true -> crc16_bitwise bs < 65536.
Proof. apply crc_reg_lt. reflexivity. Qed.

(* Z.of_N commutes with the bit operations (the standard library has this for testbit only) *)
Module N2Zb.
Lemma inj_lxor a b : Z.of_N (N.lxor a b) = Z.lxor (Z.of_N a) (Z.of_N b).
Proof. destruct a, b; reflexivity. Qed.
Lemma inj_land a b : Z.of_N (N.land a b) = Z.land (Z.of_N a) (Z.of_N b).
Proof. destruct a, b; reflexivity. Qed.
Lemma inj_lor a b : Z.of_N (N.lor a b) = Z.lor (Z.of_N a) (Z.of_N b).
Proof. destruct a, b; reflexivity. Qed.
Lemma inj_shiftr a n : Z.of_N (N.shiftr a n) = Z.shiftr (Z.of_N a) (Z.of_N n).
Proof. rewrite N.shiftr_div_pow2, Z.shiftr_div_pow2 by lia. now rewrite N2Z.inj_div, N2Z.inj_pow. Qed.
Lemma inj_shiftl a n : Z.of_N (N.shiftl a n) = Z.shiftl (Z.of_N a) (Z.of_N n).
Proof. rewrite N.shiftl_mul_pow2, Z.shiftl_mul_pow2 by lia. now rewrite N2Z.inj_mul, N2Z.inj_pow. Qed.
End N2Zb.

Lemma land_255 x : N.land x 255 = x mod 256.
Proof. apply (N.land_ones x 8). Qed.

Lemma shiftr_8 x : N.shiftr x 8 = x / 256.
Proof. apply (N.shiftr_div_pow2 x 8). Qed.

Lemma land255_lt x : N.land x 255 < 256.
Proof. rewrite land_255. apply N.mod_lt. discriminate. Qed.

Lemma shiftr8_lt c : c < 65536 -> N.shiftr c 8 < 256.
Proof. intros Hc. rewrite shiftr_8. apply N.div_lt_upper_bound; [discriminate | exact Hc]. Qed.

Lemma shiftr8_byte b : b < 256 -> N.shiftr b 8 = 0.
Proof. apply (lt_pow2_shiftr b 8). Qed.

Lemma hi_byte_mask s : s < 65536 -> N.land (N.shiftr s 8) 255 = N.shiftr s 8.
Proof. intros Hs. rewrite land_255. apply N.mod_small, shiftr8_lt, Hs. Qed.

(* a high part and a byte do not overlap, so xor, or and + agree on them *)
Lemma land_shiftl8_byte a b : b < 256 -> N.land (N.shiftl a 8) b = 0.
Proof.
  intros Hb. apply N.bits_inj_0. intros i. rewrite N.land_spec.
  destruct (N.lt_ge_cases i 8) as [Hi|Hi]; [now rewrite N.shiftl_spec_low|].
  replace i with (i - 8 + 8) by lia. rewrite <- (N.shiftr_spec' b), (shiftr8_byte b Hb), N.bits_0.
  apply andb_false_r.
Qed.

Lemma lxor_shiftl8_byte a b : b < 256 -> N.lxor (N.shiftl a 8) b = 256 * a + b.
Proof.
  intros Hb. rewrite <- N.add_nocarry_lxor by apply land_shiftl8_byte, Hb.
  rewrite N.shiftl_mul_pow2. change (2 ^ 8) with 256. lia.
Qed.

Lemma lor_shiftl8_byte a b : b < 256 -> N.lor (N.shiftl a 8) b = 256 * a + b.
Proof.
  intros Hb. rewrite <- N.lxor_lor by apply land_shiftl8_byte, Hb. apply lxor_shiftl8_byte, Hb.
Qed.

Lemma crc_lo_lt c : crc_lo c < 256.
Proof. apply land255_lt. Qed.

Lemma crc_hi_lt c : c < 65536 -> crc_hi c < 256.
Proof. apply shiftr8_lt. Qed.

Lemma crc_lo_hi c : crc_lo c + 256 * crc_hi c = c.
Proof.
  unfold crc_lo, crc_hi. rewrite land_255, shiftr_8.
  pose proof (N.div_mod c 256). lia.
Qed.

(* swap16 as two bytes: the value whose big-endian ('>H') image is [lo; hi] *)
Lemma swap16_bytes c : c < 65536 -> swap16 c = 256 * crc_lo c + crc_hi c.
Proof. intros Hc. apply lor_shiftl8_byte, shiftr8_lt, Hc. Qed.

Lemma crc_split c0 c1 : (c0 < 256)%N ->
  crc_lo (c0 + 256 * c1) = c0 /\ crc_hi (c0 + 256 * c1) = c1.
Proof.
  intros H0. unfold crc_lo, crc_hi. rewrite land_255, shiftr_8.
  replace (c0 + 256 * c1)%N with (c0 + c1 * 256)%N by lia.
  rewrite N.mod_add, N.div_add, N.mod_small, N.div_small by lia. split; reflexivity.
Qed.

Lemma crc_ok_snoc body lo hi : crc_ok (body ++ [lo; hi]) = (crc16_bitwise body =? lo + 256 * hi)%N.
Proof.
  unfold crc_ok. rewrite app_length. cbn [length].
  replace (length body + 2 - 2)%nat with (length body) by lia.
  rewrite skipn_app_exact, firstn_app_exact by reflexivity.
  replace (2 <=? length body + 2)%nat with true by (symmetry; apply Nat.leb_le; lia). reflexivity.
Qed.

Lemma crc_ok_with_crc f : wfb f = true -> crc_ok f = true -> f = with_crc (firstn (length f - 2) f).
Proof.
  intros Hw H. unfold crc_ok in H. pose proof (wfb_skipn (length f - 2) f Hw) as Hc.
  transitivity (firstn (length f - 2) f ++ skipn (length f - 2) f); [symmetry; apply firstn_skipn|].
  destruct (skipn (length f - 2) f) as [|lo [|hi [|]]]; try discriminate H.
  apply andb_prop in H as [_ H]. apply N.eqb_eq in H. cbn in Hc. unfold byteb in Hc.
  unfold with_crc. rewrite H. destruct (crc_split lo hi) as [-> ->]; [lia|reflexivity].
Qed.

(* The byte-at-a-time identity: eight shifts of x = (x >> 8) xor T[x & 0xff].
        x = (h << 8) xor l; the register is xor-linear, and each of the eight bit times only moves
        h << 8, whose low bits are 0, one place down *)
Lemma iter_shift_shiftl n h : iter_shift n (N.shiftl h (N.of_nat n)) = h.
Proof.
  induction n as [|n IH]; [apply N.shiftl_0_r|].
  rewrite Nat2N.inj_succ, N.shiftl_succ_r. cbn [iter_shift]. unfold crc_shift.
  rewrite <- N.div2_spec, N.div2_double, N.double_spec, N.odd_mul. exact IH.
Qed.

Lemma iter8_table x : iter_shift 8 x = N.lxor (N.shiftr x 8) (iter_shift 8 (N.land x 255)).
Proof.
  rewrite <- (iter_shift_shiftl 8 (N.shiftr x 8)) at 1. rewrite <- iter_shift_lxor. f_equal.
  rewrite lxor_shiftl8_byte by apply land255_lt. rewrite land_255, shiftr_8.
  pose proof (N.div_mod x 256). lia.
Qed.

Lemma py_crc_table_gen : py_crc_table = py_gen_table.
Proof. vm_compute. reflexivity. Qed.

Lemma crc_table_entries : forall i, i < 256 ->
  nth_error py_gen_table (N.to_nat i) = Some (Z.of_N (iter_shift 8 i)).
Proof.
  (* the generator is run once, in [py_crc_table_gen]; here its literal result is compared with the bitwise step *)
  assert (T : py_crc_table = map (fun i => Z.of_N (iter_shift 8 (N.of_nat i))) (seq 0 256))
    by (vm_compute; reflexivity).
  intros i Hi. rewrite <- py_crc_table_gen, T, nth_error_map, (nth_error_nth' _ 0%nat) by (rewrite seq_length; lia).
  rewrite seq_nth by lia. cbn [option_map Nat.add]. now rewrite N2Nat.id.
Qed.

(* Closed forms of the generated expressions (these are the lemmas that break when
        utilities.py changes a shift count, a mask or the operators) *)
Open Scope Z_scope.

Lemma cc_idx_closed c a :
  eval (env_of [("crc"%string, c); ("byte2int(a)"%string, a)]) (cc_idx GenFramerB.crc) = Z.land (Z.lxor c a) 255.
Proof. reflexivity. Qed.

Lemma cc_upd_closed c idx :
  eval (env_of [("crc"%string, c); ("idx"%string, idx)]) (cc_upd GenFramerB.crc) = Z.lxor (Z.land (Z.shiftr c 8) 255) idx.
Proof. reflexivity. Qed.

Lemma cc_swap_closed c :
  eval (env_of [("crc"%string, c)]) (cc_swap GenFramerB.crc) =
  Z.lor (Z.land (Z.shiftl c 8) 65280) (Z.land (Z.shiftr c 8) 255).
Proof. reflexivity. Qed.

Lemma cc_init_closed : cc_init GenFramerB.crc = 65535.
Proof. reflexivity. Qed.

Lemma cc_check_closed c k :
  beval (env_of [("computeCRC(data)"%string, c); ("check"%string, k)]) (cc_check GenFramerB.crc) = (c =? k).
Proof. unfold beval. cbn. destruct (c =? k); reflexivity. Qed.

Lemma py_index_nat {A} (l : list A) i : 0 <= i ->
  py_index l i = match nth_error l (Z.to_nat i) with Some x => Ok x | None => Raise IndexError end.
Proof.
  intros Hi. unfold py_index. replace (i <? 0) with false by lia. cbv beta iota zeta. (* j := i; now j <? 0 reads i <? 0 *)
  replace (i <? 0) with false by lia. cbn [orb].
  destruct (nth_error l (Z.to_nat i)) eqn:N; [|destruct (_ <=? i); reflexivity].
  assert (Z.to_nat i < length l)%nat by (apply nth_error_Some; congruence).
  replace (Z.of_nat (length l) <=? i) with false by lia. reflexivity.
Qed.

Lemma py_index_exn {A} (l : list A) i e : py_index l i = Raise e -> e = IndexError.
Proof. unfold py_index. destruct (_ || _)%bool; [congruence|]. destruct (nth_error _ _); congruence. Qed.

Lemma py_index_table i : (i < 256)%N ->
  py_index py_crc_table (Z.of_N i) = Ok (Z.of_N (iter_shift 8 i)).
Proof.
  intros Hi. rewrite py_index_nat by lia. replace (Z.to_nat (Z.of_N i)) with (N.to_nat i) by lia.
  now rewrite py_crc_table_gen, crc_table_entries.
Qed.

Lemma py_crc_step_eq s b : (s < 65536)%N -> (b < 256)%N ->
  py_crc_step (Z.of_N s) b = Ok (Z.of_N (crc_byte s b)).
Proof.
  intros Hs Hb. unfold py_crc_step.
  rewrite cc_idx_closed.
  (* read the literals of the generated expression as images of N, so that the bit operations move under Z.of_N *)
  change 255 with (Z.of_N 255). rewrite <- N2Zb.inj_lxor, <- N2Zb.inj_land.
  rewrite py_index_table by apply land255_lt. cbn [bind].
  rewrite cc_upd_closed.
  change 8 with (Z.of_N 8). change 255 with (Z.of_N 255).
  rewrite <- N2Zb.inj_shiftr, <- N2Zb.inj_land, <- N2Zb.inj_lxor.
  f_equal. f_equal. unfold crc_byte.
  rewrite (iter8_table (N.lxor s b)), N.shiftr_lxor, (shiftr8_byte b Hb), N.lxor_0_r, hi_byte_mask by exact Hs.
  reflexivity.
Qed.

Lemma py_crc_loop_eq bs : forall s, (s < 65536)%N -> wfb bs = true ->
  py_crc_loop (Z.of_N s) bs = Ok (Z.of_N (crc_reg s bs)).
Proof.
  induction bs as [|b t IH]; intros s Hs Hw; cbn [py_crc_loop crc_reg fold_left]; [reflexivity|].
  apply wfb_cons in Hw as [Hb Ht].
  rewrite py_crc_step_eq by assumption. cbn [bind].
  apply IH; [apply crc_byte_lt; assumption | exact Ht].
Qed.

Lemma swap_closed_N c : (c < 65536)%N ->
  N.lor (N.land (N.shiftl c 8) 65280) (N.land (N.shiftr c 8) 255) = swap16 c.
Proof.
  intros Hc. change 65280%N with (N.shiftl 255 8). now rewrite <- N.shiftl_land, hi_byte_mask.
Qed.

Theorem py_crc_bitwise : forall bs, wfb bs = true ->
  py_crc bs = Ok (Z.of_N (swap16 (crc16_bitwise bs))).
Proof.
  intros bs Hw. unfold py_crc, crc16_bitwise. rewrite cc_init_closed.
  change 65535 with (Z.of_N 65535).
  rewrite py_crc_loop_eq by (try exact Hw; reflexivity). cbn [bind].
  rewrite cc_swap_closed.
  change 8 with (Z.of_N 8). change 65280 with (Z.of_N 65280). change 255 with (Z.of_N 255).
  rewrite <- N2Zb.inj_shiftl, <- N2Zb.inj_shiftr, <- !N2Zb.inj_land, <- N2Zb.inj_lor.
  rewrite swap_closed_N by (apply crc_reg_lt; [reflexivity | exact Hw]).
  reflexivity.
Qed.

Theorem py_check_crc_spec : forall bs k, wfb bs = true ->
  py_check_crc bs k = Ok (Z.of_N (swap16 (crc16_bitwise bs)) =? k).
Proof.
  intros bs k Hw. unfold py_check_crc. rewrite py_crc_bitwise by exact Hw. cbn [bind].
  rewrite cc_check_closed. reflexivity.
Qed.

Example crc_check_value :
  py_crc [49; 50; 51; 52; 53; 54; 55; 56; 57]%N = Ok 14155 /\
  crc16_bitwise [49; 50; 51; 52; 53; 54; 55; 56; 57]%N = 19255%N.   (* "123456789" -> 0x4B37 *)
Proof. split; vm_compute; reflexivity. Qed.
