(* FrA_stream_proofs.v — what the socket, ASCII and TLS framer developments share: facts about the
   vocabulary of FrBaseA, and the chunking argument, proved once for any framer whose receive loop
   satisfies the step equations collected in [framer_ok]. *)
From PM.theories Require Import Base Struct FrBaseA FrSpecA.
From PM.Generated Require Import GenFramerA.
From PM.proofs Require Import Base_proofs.
Open Scope list_scope.
Open Scope Z_scope.

Lemma pyfrom_nonneg bs i : 0 <= i -> pyfrom bs i = skipn (Z.to_nat i) bs.
Proof. intros H. unfold pyfrom, norm_idx. rewrite (proj2 (Z.ltb_ge i 0) H). apply skipn_min. Qed.

Lemma pyslice_nonneg bs lo hi : 0 <= lo -> 0 <= hi ->
  pyslice bs lo hi = firstn (Z.to_nat hi - Z.to_nat lo) (skipn (Z.to_nat lo) bs).
Proof.
  intros Hlo Hhi. unfold pyslice, norm_idx, bslice.
  rewrite (proj2 (Z.ltb_ge lo 0) Hlo), (proj2 (Z.ltb_ge hi 0) Hhi), skipn_min.
  destruct (Nat.le_gt_cases (Z.to_nat lo) (length bs)) as [Hl|Hl].
  2:{ rewrite !skipn_all2 by lia. now rewrite !firstn_nil. }
  rewrite (Nat.min_l _ _ Hl). destruct (Nat.le_gt_cases (Z.to_nat hi) (length bs)) as [Hh|Hh].
  - now rewrite Nat.min_l.
  - rewrite Nat.min_r, !firstn_all2 by (rewrite ?skipn_length; lia). reflexivity.
Qed.

Lemma prefix_eqb_true p l : prefix_eqb p l = true -> exists t, l = p ++ t.
Proof.
  revert l. induction p as [|a p IH]; intros l H; [now exists l|].
  destruct l as [|b l]; [discriminate|]. cbn [prefix_eqb] in H. apply andb_true_iff in H as [Hab H].
  apply N.eqb_eq in Hab as ->. destruct (IH l H) as (t & ->). now exists t.
Qed.

Lemma find_sub_split p l i : find_sub p l = Some i -> exists a t, l = a ++ p ++ t /\ length a = i.
Proof.
  revert i. induction l as [|x l IH]; intros i H; [discriminate|]. cbn [find_sub] in H.
  destruct (prefix_eqb p (x :: l)) eqn:E.
  - injection H as <-. destruct (prefix_eqb_true _ _ E) as (t & ->). now exists [], t.
  - destruct (find_sub p l) as [j|]; [|discriminate]. injection H as <-.
    destruct (IH j eq_refl) as (a & t & -> & <-). now exists (x :: a), t.
Qed.

(* [base] holds the literals of `0 in units or 0xFF in units` in framer/__init__.py *)
Lemma validate_spec units single u :
  validate_unit base units single (Some u) = Ok (single || zmem 0 units || zmem 255 units || zmem u units).
Proof.
  unfold validate_unit. destruct single; [reflexivity|]. cbn [v_any base existsb orb].
  destruct (zmem 0 units); [reflexivity|]. destruct (zmem 255 units); reflexivity.
Qed.

Lemma pack1_B v : 0 <= v < 256 -> pack1 true FB v = Ok [Z.to_N v].
Proof.
  intros Hv. unfold pack1, in_range, to_unsigned. cbn [fsigned fwidth]. change (pow256 1) with 256.
  replace ((0 <=? v) && (v <? 256)) with true by lia. replace (v <? 0) with false by lia.
  cbn [le_bytes rev app]. now rewrite Z.mod_small.
Qed.

Lemma feed_silent {St} (recv : St -> bytes -> St * list delivery * outc) (Inv : St -> Prop) :
  (forall s ch, Inv s -> exists s' o, recv s ch = (s', [], o) /\ Inv s') ->
  forall chunks s, Inv s -> snd (fst (feed recv s chunks)) = [].
Proof.
  intros Hstep. induction chunks as [|ch chunks IH]; intros s Hs; [reflexivity|].
  cbn [feed]. destruct (Hstep s ch Hs) as (s' & o & -> & Hs'). specialize (IH s' Hs').
  destruct (feed recv s' chunks) as [[s2 ds] ok]. exact IH.
Qed.

Lemma ref_deliveries_app k c a b : ref_deliveries k c (a ++ b) = ref_deliveries k c a ++ ref_deliveries k c b.
Proof. unfold ref_deliveries. now rewrite filter_app, map_app. Qed.

Lemma valid_stream_frame k dec c f : valid_frame k dec c f -> stream_frame k dec c f.
Proof. intros (Hwf & Hm & _). now split. Qed.

Lemma ref_deliveries_valid k dec c fs :
  Forall (valid_frame k dec c) fs -> ref_deliveries k c fs = map (spec_delivery k) fs.
Proof.
  unfold ref_deliveries. induction 1 as [|f fs (_ & _ & Ha) _ IH]; [reflexivity|].
  cbn [filter]. rewrite Ha. cbn [map]. now f_equal.
Qed.

(* [cons_d d r] of FrTcp and [cons_da d r] of FrAscii are [prepend [d] r] by conversion *)
Definition prepend {St} (ds : list delivery) (r : St * list delivery * outc) : St * list delivery * outc :=
  let '(s, ds', o) := r in (s, ds ++ ds', o).

(* A framer: states are (buffer, header) pairs [mk b h]; [recv] appends the chunk and runs [loop] with one
   unit of fuel per buffered byte, plus one.  [h0] is the header advanceFrame leaves.  [waits h]: with
   header h the loop leaves a proper prefix of a frame alone (for the socket framer every header; the ASCII
   loop drops a byte when the header length is not 0, so there only the cleared header). *)
Section Framer.
Variables (k : kind) (dec : bytes -> dres) (c : cfg).
Variables (St H : Type) (mk : bytes -> H -> St) (bufof : St -> bytes) (hdrof : St -> H).
Variables (h0 : H) (waits : H -> Prop).
Variable loop : nat -> St -> St * list delivery * outc.
Variable recv : St -> bytes -> St * list delivery * outc.
Notation stream fs := (concat (map (spec_adu k) fs)).
Notation sframe := (stream_frame k dec c).

Record framer_ok : Prop := {
  fr_adu_ne : forall f, spec_adu k f <> [];
  fr_buf : forall b h, bufof (mk b h) = b;
  fr_hdr : forall b h, hdrof (mk b h) = h;
  fr_recv : forall s ch, recv s ch = loop (S (length (bufof s ++ ch))) (mk (bufof s ++ ch) (hdrof s));
  fr_waits0 : waits h0;
  fr_served : forall n f rest h, valid_frame k dec c f ->
    loop (S n) (mk (spec_adu k f ++ rest) h) = prepend [spec_delivery k f] (loop n (mk rest h0));
  fr_foreign : forall n f rest h, frame_wf k f -> spec_accepts k c (f_uid f) = false ->
    loop (S n) (mk (spec_adu k f ++ rest) h) = loop n (mk rest h0);
  fr_partial : forall n f p q h, frame_wf k f -> spec_adu k f = p ++ q -> q <> [] -> waits h ->
    exists h', loop (S n) (mk p h) = (mk p h', [], Done) /\ waits h';
  fr_empty : forall n h, loop (S n) (mk [] h) = (mk [] h, [], Done) }.

Hypothesis OK : framer_ok.

Definition hdr_after (fs : list frame) (h : H) : H := match fs with [] => h | _ => h0 end.

Lemma loop_frame1 n f rest h : sframe f ->
  loop (S n) (mk (spec_adu k f ++ rest) h) = prepend (ref_deliveries k c [f]) (loop n (mk rest h0)).
Proof.
  intros [Hwf Hd]. unfold ref_deliveries. cbn [filter]. destruct (spec_accepts k c (f_uid f)) eqn:Ea.
  - apply (fr_served OK). repeat split; auto.
  - rewrite (fr_foreign OK) by assumption. now destruct (loop n _) as [[? ?] ?].
Qed.

Lemma loop_frames fs : forall n rest h, Forall sframe fs ->
  loop (length fs + n) (mk (stream fs ++ rest) h) =
  prepend (ref_deliveries k c fs) (loop n (mk rest (hdr_after fs h))).
Proof.
  induction fs as [|f fs IH]; intros n rest h Hfs; cbn [map concat app length Nat.add hdr_after];
    [now destruct (loop n _) as [[? ?] ?]|].
  rewrite <- app_assoc, loop_frame1, IH by now inversion Hfs.
  change (f :: fs) with ([f] ++ fs). rewrite ref_deliveries_app.
  replace (hdr_after fs h0) with h0 by now destruct fs.
  destruct (loop n _) as [[? ?] ?]. cbn [prepend]. now rewrite app_assoc.
Qed.

(* the fuel covers one iteration per frame (a frame has at least one byte) and the last one, which stops *)
Lemma fuel_split fs p : exists m, S (length (stream fs ++ p)) = (length fs + S m)%nat.
Proof.
  exists (length (stream fs ++ p) - length fs)%nat.
  pose proof (stream_length_ge _ (fr_adu_ne OK) fs). rewrite app_length in *. lia.
Qed.

Lemma framer_batch s ch fs p rest :
  waits (hdrof s) -> Forall sframe fs -> Forall sframe rest ->
  bufof s ++ ch = stream fs ++ p -> partial (spec_adu k) p rest ->
  exists h', recv s ch = (mk p h', ref_deliveries k c fs, Done) /\ waits h'.
Proof.
  intros Hh Hfs Hrest E Hp. rewrite (fr_recv OK), E. destruct (fuel_split fs p) as (m & ->).
  rewrite loop_frames by assumption.
  assert (Hh' : waits (hdr_after fs (hdrof s))) by (destruct fs; [exact Hh|apply OK]). clear Hh. rename Hh' into Hh.
  destruct rest as [|f rest]; cbn [partial] in Hp.
  - subst p. rewrite (fr_empty OK). cbn [prepend]. rewrite app_nil_r. eauto.
  - destruct Hp as (q & Ef & Hq). apply Forall_inv in Hrest as [Hwf _].
    destruct (fr_partial OK m f p q _ Hwf Ef Hq Hh) as (h' & -> & Hh').
    cbn [prepend]. rewrite app_nil_r. eauto.
Qed.

Lemma loop_whole fs fuel h : Forall sframe fs -> (length (stream fs) < fuel)%nat ->
  loop fuel (mk (stream fs) h) = (mk [] (hdr_after fs h), ref_deliveries k c fs, Done).
Proof.
  intros Hfs Hf. pose proof (stream_length_ge _ (fr_adu_ne OK) fs).
  replace fuel with (length fs + S (fuel - length fs - 1))%nat by lia.
  rewrite <- (app_nil_r (stream fs)), loop_frames, (fr_empty OK) by assumption. cbn [prepend]. now rewrite app_nil_r.
Qed.

Lemma feed_frames : forall chunks s fs,
  waits (hdrof s) -> partial (spec_adu k) (bufof s) fs -> Forall sframe fs ->
  bufof s ++ concat chunks = stream fs ->
  exists s', feed recv s chunks = (s', ref_deliveries k c fs, true).
Proof.
  induction chunks as [|ch chunks IH]; intros s fs Hh Hp Hfs E.
  - rewrite app_nil_r in E. rewrite (partial_whole _ _ _ Hp E). now exists s.
  - cbn [concat] in E. rewrite app_assoc in E.
    destruct (split_stream _ (fr_adu_ne OK) _ _ _ E) as (g1 & g2 & p & -> & E1 & E2 & Hp').
    apply Forall_app in Hfs as [H1 H2].
    destruct (framer_batch s ch g1 p g2 Hh H1 H2 E1 Hp') as (h' & Er & Hh').
    destruct (IH (mk p h') g2) as (s' & Ef); rewrite ?(fr_hdr OK), ?(fr_buf OK); try assumption.
    exists s'. cbn [feed]. now rewrite Er, Ef, ref_deliveries_app.
Qed.

Theorem framer_chunking frames chunks :
  Forall sframe frames -> concat chunks = stream frames ->
  exists s', feed recv (mk [] h0) chunks = (s', ref_deliveries k c frames, true).
Proof.
  intros Hfs E. apply feed_frames; rewrite ?(fr_hdr OK), ?(fr_buf OK).
  - apply OK.
  - apply partial_nil, OK.
  - exact Hfs.
  - exact E.
Qed.

Theorem framer_whole_frames vs : Forall sframe vs ->
  exists h', recv (mk [] h0) (stream vs) = (mk [] h', ref_deliveries k c vs, Done) /\ waits h'.
Proof.
  intros Hvs. apply (framer_batch _ _ vs [] []); rewrite ?(fr_hdr OK), ?(fr_buf OK).
  - apply OK.
  - exact Hvs.
  - constructor.
  - apply eq_sym, app_nil_r.
  - reflexivity.
Qed.

Theorem framer_whole_frame f : valid_frame k dec c f ->
  recv (mk [] h0) (spec_adu k f) = (mk [] h0, [spec_delivery k f], Done).
Proof.
  intros Hv. rewrite (fr_recv OK), (fr_buf OK), (fr_hdr OK). cbn [app].
  pose proof (fr_served OK (length (spec_adu k f)) f [] h0 Hv) as E. rewrite app_nil_r in E. rewrite E.
  destruct (length (spec_adu k f)) eqn:El; [now apply length_zero_iff_nil, (fr_adu_ne OK) in El|].
  now rewrite (fr_empty OK).
Qed.

End Framer.

Arguments framer_ok k dec c {St H} mk bufof hdrof h0 waits loop recv.
Arguments loop_whole {k dec c St H mk bufof hdrof h0 waits loop recv} OK.
Arguments framer_chunking {k dec c St H mk bufof hdrof h0 waits loop recv} OK.
Arguments framer_whole_frames {k dec c St H mk bufof hdrof h0 waits loop recv} OK.
Arguments framer_whole_frame {k dec c St H mk bufof hdrof h0 waits loop recv} OK.
