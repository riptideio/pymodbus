(* Payload_floats_proofs.v — float VALUES (Flocq's IEEE-754 binary16/32/64, including
   zeros, subnormals, infinities and NaNs with payload) through the payload model.
   Kept apart from Payload_proofs.v because Flocq's [binary_float_of_bits_of_binary_float]
   depends on classical axioms of the real-number library; the bit-pattern theorems stay
   axiom-free.  The Python side of this step (struct.pack('f', x)) is NOT modelled: this
   file says that IF struct maps a float to its IEEE bit pattern and back, the float value
   survives the builder / decoder under every order pair. *)
From PM.theories Require Import Base Struct Payload.
From PM.proofs Require Import Payload_proofs.
From Flocq Require Import IEEE754.Binary IEEE754.Bits.
Open Scope list_scope.
Open Scope Z_scope.

Definition binary16 := binary_float 11 16.
Definition b16_of_bits : Z -> binary16 := binary_float_of_bits 10 5 (refl_equal _) (refl_equal _) (refl_equal _).
Definition bits_of_b16 : binary16 -> Z := bits_of_binary_float 10 5.

Inductive fvalue := FV16 (x : binary16) | FV32 (x : binary32) | FV64 (x : binary64).

(* struct.pack('e'/'f'/'d') as the IEEE encoding *)
Definition value_of_float (f : fvalue) : value :=
  match f with
  | FV16 x => F16 (bits_of_b16 x)
  | FV32 x => F32 (bits_of_b32 x)
  | FV64 x => F64 (bits_of_b64 x)
  end.

(* struct.unpack('e'/'f'/'d') as the IEEE decoding *)
Definition float_of_value (v : value) : option fvalue :=
  match v with
  | VNum KF16 w => Some (FV16 (b16_of_bits w))
  | VNum KF32 w => Some (FV32 (b32_of_bits w))
  | VNum KF64 w => Some (FV64 (b64_of_bits w))
  | _ => None
  end.

(* 10 5, 23 8, 52 11: mantissa and exponent widths of binary16 / binary32 / binary64 *)
Lemma float_value_wf f : wf_value (value_of_float f) = true.
Proof.
  destruct f as [x|x|x]; cbn [value_of_float wf_value F16 F32 F64];
    [pose proof (bits_of_binary_float_range 10 5 eq_refl eq_refl x) as H
    |pose proof (bits_of_binary_float_range 23 8 eq_refl eq_refl x) as H
    |pose proof (bits_of_binary_float_range 52 11 eq_refl eq_refl x) as H];
    apply andb_true_intro; (split; [apply Z.leb_le|apply Z.ltb_lt]); apply H.
Qed.

Lemma float_of_value_of_float f : float_of_value (value_of_float f) = Some f.
Proof.
  destruct f as [x|x|x]; cbn [value_of_float float_of_value F16 F32 F64]; do 2 f_equal.
  - apply (binary_float_of_bits_of_binary_float 10 5).
  - apply (binary_float_of_bits_of_binary_float 23 8).
  - apply (binary_float_of_bits_of_binary_float 52 11).
Qed.

Lemma float_values_wf fs : wf_values (map value_of_float fs) = true.
Proof. unfold wf_values. rewrite forallb_forall. intros v (f & <- & _)%in_map_iff. apply float_value_wf. Qed.

Lemma float_of_values_of_floats fs : map float_of_value (map value_of_float fs) = map Some fs.
Proof. rewrite map_map. apply map_ext, float_of_value_of_float. Qed.
