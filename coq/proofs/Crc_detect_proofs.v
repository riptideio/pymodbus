(* Crc_detect_proofs.v — detection power of CRC-16/Modbus (spec side of theories/Crc.v).
   A corrupted frame passes the check exactly when the error pattern alone leaves the zero
   register at zero (linearity, residue form); that is excluded for odd weight by the parity of
   the register, for two flipped bits by the orbit of crc_poly under a bit time, and for bursts
   of at most 16 bits by the bit-serial view: feeding the bits l to register s leaves
   iter_shift |l| (s xor v), v the little-endian value of l. *)
From PM.theories Require Import Base Crc.
From PM.proofs Require Import Base_proofs Crc_proofs.
Open Scope list_scope.
Open Scope N_scope.

Lemma crc_reg_cons s b bs : crc_reg s (b :: bs) = crc_reg (crc_byte s b) bs.
Proof. reflexivity. Qed.

Lemma crc_reg_app s a b : crc_reg s (a ++ b) = crc_reg (crc_reg s a) b.
Proof. apply fold_left_app. Qed.

Lemma crc_shift_0 : crc_shift 0 = 0.
Proof. reflexivity. Qed.

Lemma iter_shift_0 n : iter_shift n 0 = 0.
Proof. induction n; simpl; auto. Qed.

Lemma iter_shift_add n m s : iter_shift (n + m) s = iter_shift m (iter_shift n s).
Proof. revert s. induction n as [|n IH]; intros s; simpl; [reflexivity|]. apply IH. Qed.

Lemma crc_byte_lxor s t a e :
  crc_byte (N.lxor s t) (N.lxor a e) = N.lxor (crc_byte s a) (crc_byte t e).
Proof. unfold crc_byte. now rewrite lxor_swap4, iter_shift_lxor. Qed.

Lemma crc_reg_lxor : forall a e s t, length e = length a ->
  crc_reg (N.lxor s t) (xor_bytes a e) = N.lxor (crc_reg s a) (crc_reg t e).
Proof.
  induction a as [|x a IH]; intros [|y e] s t H; try discriminate H; [reflexivity|].
  cbn [xor_bytes]. rewrite !crc_reg_cons, crc_byte_lxor. apply IH. now injection H.
Qed.

Theorem crc_linear : forall a e s, length e = length a ->
  crc_reg s (xor_bytes a e) = N.lxor (crc_reg s a) (crc_reg 0 e).
Proof.
  intros a e s H. rewrite <- (crc_reg_lxor a e s 0 H). now rewrite N.lxor_0_r.
Qed.
Print Assumptions crc_linear.

(* the low bit decides whether the polynomial is xored in, and the polynomial has bit 15,
   which the shifted register has not *)
Lemma crc_shift_eq0 s : s < 65536 -> crc_shift s = 0 -> s = 0.
Proof.
  intros H E. rewrite crc_shift_alt in E. apply N.lxor_eq in E.
  pose proof (N.div2_odd s) as D. rewrite E in D.
  destruct (N.odd s); cbv [mask crc_poly N.b2n] in D; lia.
Qed.

Lemma iter_shift_eq0 n : forall s, s < 65536 -> (iter_shift n s = 0 <-> s = 0).
Proof.
  induction n as [|n IH]; intros s H; cbn [iter_shift]; [reflexivity|].
  rewrite IH by apply crc_shift_lt16, H.
  split; [apply crc_shift_eq0, H | intros ->; reflexivity].
Qed.

Definition bit_feed (s : N) (c : bool) : N := crc_shift (N.lxor s (N.b2n c)).
Definition feed_bits (s : N) (l : list bool) : N := fold_left bit_feed l s.

Fixpoint bits_val (l : list bool) : N :=
  match l with [] => 0 | c :: t => N.b2n c + 2 * bits_val t end.

Lemma feed_bits_app s a b : feed_bits s (a ++ b) = feed_bits (feed_bits s a) b.
Proof. apply fold_left_app. Qed.

Lemma bit_feed_false s : bit_feed s false = crc_shift s.
Proof. unfold bit_feed. simpl N.b2n. now rewrite N.lxor_0_r. Qed.

Lemma bit_feed_true s : bit_feed s true = N.lxor (crc_shift s) crc_poly.
Proof. unfold bit_feed. rewrite crc_shift_lxor. reflexivity. Qed.

Lemma bit_feed_lt16 s c : s < 65536 -> bit_feed s c < 65536.
Proof.
  intros H. unfold bit_feed. apply crc_shift_lt16, lxor_lt16; [exact H|]. destruct c; reflexivity.
Qed.

Lemma feed_bits_lt16 l : forall s, s < 65536 -> feed_bits s l < 65536.
Proof.
  unfold feed_bits. induction l as [|c l IH]; intros s H; simpl; [exact H|].
  apply IH, bit_feed_lt16, H.
Qed.

Lemma feed_bits_zeros n : forall s, feed_bits s (repeat false n) = iter_shift n s.
Proof.
  unfold feed_bits. induction n as [|n IH]; intros s; simpl; [reflexivity|].
  now rewrite bit_feed_false, IH.
Qed.

Lemma crc_shift_split s c v :
  crc_shift (N.lxor s (N.b2n c + 2 * v)) = N.lxor (bit_feed s c) v.
Proof.
  replace (N.b2n c + 2 * v) with (N.lxor (N.b2n c) (2 * v)) by (destruct c, v; reflexivity).
  rewrite <- N.lxor_assoc, crc_shift_lxor. unfold bit_feed. f_equal. destruct v; reflexivity.
Qed.

Lemma feed_bits_val : forall l s,
  feed_bits s l = iter_shift (length l) (N.lxor s (bits_val l)).
Proof.
  induction l as [|c l IH]; intros s; cbn [length bits_val iter_shift].
  - now rewrite N.lxor_0_r.
  - rewrite crc_shift_split. apply IH.
Qed.

Lemma bits_val_lt l : bits_val l < 2 ^ N.of_nat (length l).
Proof.
  induction l as [|c l IH]; [reflexivity|]. cbn [bits_val length].
  rewrite Nat2N.inj_succ, N.pow_succ_r'. destruct c; simpl N.b2n; lia.
Qed.

Lemma bits_val_app a b :
  bits_val (a ++ b) = bits_val a + 2 ^ N.of_nat (length a) * bits_val b.
Proof.
  induction a as [|c a IH]; cbn [app bits_val length]; [now destruct (bits_val b)|].
  rewrite IH, Nat2N.inj_succ, N.pow_succ_r'. ring.
Qed.

Lemma feed_bits_zero_iff s l : s < 65536 -> (length l <= 16)%nat ->
  (feed_bits s l = 0 <-> s = bits_val l).
Proof.
  intros Hs Hl.
  assert (Hv : bits_val l < 65536).
  { apply (N.lt_le_trans _ _ _ (bits_val_lt l)). apply (N.pow_le_mono_r 2 _ 16); lia. }
  rewrite feed_bits_val, iter_shift_eq0 by (apply lxor_lt16; assumption). apply N.lxor_eq_0_iff.
Qed.

Lemma div2_lt_pow2 b k : b < 2 ^ N.of_nat (S k) -> N.div2 b < 2 ^ N.of_nat k.
Proof.
  rewrite Nat2N.inj_succ, N.pow_succ_r'. pose proof (div2_bound b). lia.
Qed.

Lemma byte_bits_length k : forall b, length (byte_bits k b) = k.
Proof. induction k; intros b; simpl; auto. Qed.

Lemma bits_val_byte_bits k : forall b, b < 2 ^ N.of_nat k -> bits_val (byte_bits k b) = b.
Proof.
  induction k as [|k IH]; intros b H; [simpl in *; lia|].
  cbn [byte_bits bits_val]. rewrite IH by apply div2_lt_pow2, H. symmetry.
  rewrite N.add_comm. apply N.div2_odd.
Qed.

Lemma bits_of_cons b e : bits_of (b :: e) = byte_bits 8 b ++ bits_of e.
Proof. reflexivity. Qed.

Lemma bits_of_length : forall e, length (bits_of e) = (8 * length e)%nat.
Proof.
  induction e as [|b e IH]; [reflexivity|].
  rewrite bits_of_cons, app_length, byte_bits_length, IH. simpl length. lia.
Qed.

Lemma crc_reg_bits : forall e s, wfb e = true -> crc_reg s e = feed_bits s (bits_of e).
Proof.
  induction e as [|b e IH]; intros s W; [reflexivity|]. apply wfb_cons in W. destruct W as [Hb W].
  rewrite bits_of_cons, feed_bits_app, crc_reg_cons, IH by exact W. f_equal.
  rewrite feed_bits_val, byte_bits_length, bits_val_byte_bits by exact Hb. reflexivity.
Qed.

Lemma crc_residue : forall body lo hi s, s < 65536 -> wfb body = true -> lo < 256 -> hi < 256 ->
  (crc_reg s (body ++ [lo; hi]) = 0 <-> crc_reg s body = lo + 256 * hi).
Proof.
  intros body lo hi s Hs W Hlo Hhi.
  assert (V : bits_val (bits_of [lo; hi]) = lo + 256 * hi).
  { cbn [bits_of flat_map]. rewrite app_nil_r, bits_val_app, byte_bits_length.
    now rewrite !bits_val_byte_bits by assumption. }
  rewrite crc_reg_app, crc_reg_bits, <- V by (rewrite !wfb_cons; auto).
  apply feed_bits_zero_iff; [apply crc_reg_lt; assumption | now rewrite bits_of_length].
Qed.

Lemma crc_ok_residue : forall frame, wfb frame = true ->
  (crc_ok frame = true <-> (2 <= length frame)%nat /\ crc_reg 65535 frame = 0).
Proof.
  intros frame W. destruct (Nat.leb_spec 2 (length frame)) as [L|L].
  - destruct (split_last2 frame L) as (body & lo & hi & ->).
    rewrite wfb_app, andb_true_iff, !wfb_cons in W. destruct W as (W & Hlo & Hhi & _).
    rewrite crc_ok_snoc, N.eqb_eq, crc_residue by (reflexivity || assumption). unfold crc16_bitwise. tauto.
  - split; [|lia]. unfold crc_ok. intros H. exfalso.
    destruct (skipn _ frame) as [|lo [|hi [|? ?]]]; try discriminate H.
    apply andb_prop in H as [H _]. apply Nat.leb_le in H. lia.
Qed.

Lemma xor_bytes_length : forall a e, length (xor_bytes a e) = length a.
Proof. induction a; intros [|y e]; simpl; auto. Qed.

Lemma wfb_xor_bytes : forall a e, wfb a = true -> wfb e = true -> wfb (xor_bytes a e) = true.
Proof.
  induction a as [|x a IH]; intros [|y e] Wa We; auto.
  cbn [xor_bytes]. rewrite wfb_cons in *. split; [apply (lxor_lt_pow2 _ _ 8) | apply IH]; tauto.
Qed.

Lemma crc_detect_iff : forall frame e, wfb frame = true -> wfb e = true ->
  length e = length frame -> crc_ok frame = true ->
  (crc_ok (xor_bytes frame e) = true <-> crc_reg 0 e = 0).
Proof.
  intros frame e Wf We L OK.
  apply crc_ok_residue in OK; [|assumption]. destruct OK as [L2 R].
  rewrite crc_ok_residue by (apply wfb_xor_bytes; assumption).
  rewrite xor_bytes_length, crc_linear, R, N.lxor_0_l by assumption. tauto.
Qed.

Lemma crc_detected frame e : wfb frame = true -> wfb e = true ->
  length e = length frame -> crc_ok frame = true -> crc_reg 0 e <> 0 ->
  crc_ok (xor_bytes frame e) = false.
Proof.
  intros Wf We L OK NZ. destruct (crc_ok (xor_bytes frame e)) eqn:E; [|reflexivity].
  apply crc_detect_iff in E; auto. contradiction.
Qed.

Definition bit_par (n : N) : bool := Nat.odd (popcount n).

Lemma odd_S n : Nat.odd (S n) = negb (Nat.odd n).
Proof. rewrite Nat.odd_succ, <- Nat.negb_odd. reflexivity. Qed.

Lemma bit_par_Ndouble n : bit_par (Pos.Ndouble n) = bit_par n.
Proof. destruct n; reflexivity. Qed.

Lemma bit_par_Nsucc_double n : bit_par (Pos.Nsucc_double n) = negb (bit_par n).
Proof. destruct n; unfold bit_par; simpl popcount; [reflexivity | apply odd_S]. Qed.

Lemma bit_par_xI p : bit_par (Npos p~1) = negb (bit_par (Npos p)).
Proof. unfold bit_par; simpl popcount. apply odd_S. Qed.

Lemma bit_par_xO p : bit_par (Npos p~0) = bit_par (Npos p).
Proof. reflexivity. Qed.

Lemma bit_par_pos_lxor : forall p q, bit_par (Pos.lxor p q) = xorb (bit_par (Npos p)) (bit_par (Npos q)).
Proof.
  induction p as [p IH|p IH|]; intros [q|q|]; simpl Pos.lxor;
    rewrite ?bit_par_Ndouble, ?bit_par_Nsucc_double, ?bit_par_xI, ?bit_par_xO, ?IH;
    try destruct (bit_par (Npos p)); try destruct (bit_par (Npos q)); reflexivity.
Qed.

Lemma bit_par_lxor a b : bit_par (N.lxor a b) = xorb (bit_par a) (bit_par b).
Proof.
  destruct a as [|p], b as [|q]; simpl N.lxor.
  - reflexivity.
  - change (bit_par 0) with false. now rewrite xorb_false_l.
  - change (bit_par 0) with false. now rewrite xorb_false_r.
  - apply bit_par_pos_lxor.
Qed.

Lemma bit_par_div2 x : bit_par (N.div2 x) = xorb (bit_par x) (N.odd x).
Proof.
  destruct x as [|[p|p|]]; simpl N.div2; simpl N.odd;
    rewrite ?bit_par_xI, ?bit_par_xO; try destruct (bit_par (Npos p)); reflexivity.
Qed.

Lemma bit_par_mask c : bit_par (mask c) = c.
Proof. destruct c; reflexivity. Qed.

(* crc_poly has odd weight *)
Lemma bit_par_crc_shift s : bit_par (crc_shift s) = bit_par s.
Proof.
  rewrite crc_shift_alt, bit_par_lxor, bit_par_div2, bit_par_mask.
  destruct (bit_par s), (N.odd s); reflexivity.
Qed.

Lemma bit_par_iter_shift n : forall s, bit_par (iter_shift n s) = bit_par s.
Proof. induction n; intros s; simpl; [reflexivity|]. now rewrite IHn, bit_par_crc_shift. Qed.

Lemma bit_par_crc_reg : forall e s, bit_par (crc_reg s e) = xorb (bit_par s) (Nat.odd (weight e)).
Proof.
  induction e as [|b e IH]; intros s.
  - cbn. now rewrite xorb_false_r.
  - cbn [weight fold_right]. fold (weight e).
    rewrite crc_reg_cons, IH, Nat.odd_add. unfold crc_byte.
    rewrite bit_par_iter_shift, bit_par_lxor. fold (bit_par b). now rewrite xorb_assoc.
Qed.

Lemma crc_reg0_odd : forall e, Nat.odd (weight e) = true -> crc_reg 0 e <> 0.
Proof.
  intros e H E. pose proof (bit_par_crc_reg e 0) as P. rewrite E, H in P. discriminate.
Qed.

Lemma feed_bits_pad i w k : feed_bits 0 (true :: w) <> 0 ->
  feed_bits 0 (repeat false i ++ true :: w ++ repeat false k) <> 0.
Proof.
  intros H. rewrite feed_bits_app, feed_bits_zeros, iter_shift_0, app_comm_cons.
  rewrite feed_bits_app, feed_bits_zeros, iter_shift_eq0 by (apply feed_bits_lt16; reflexivity).
  exact H.
Qed.

Fixpoint bit_count (l : list bool) : nat :=
  match l with [] => O | c :: t => ((if c then 1 else 0) + bit_count t)%nat end.

Lemma bit_count_app a b : bit_count (a ++ b) = (bit_count a + bit_count b)%nat.
Proof. induction a as [|c a IH]; simpl; [reflexivity|]. rewrite IH. lia. Qed.

Lemma popcount_div2 b : popcount b = ((if N.odd b then 1 else 0) + popcount (N.div2 b))%nat.
Proof. destruct b as [|[p|p|]]; reflexivity. Qed.

Lemma bit_count_byte_bits k : forall b, b < 2 ^ N.of_nat k -> bit_count (byte_bits k b) = popcount b.
Proof.
  induction k as [|k IH]; intros b H; [simpl in *; now replace b with 0 by lia|].
  cbn [byte_bits bit_count]. rewrite (popcount_div2 b). f_equal. apply IH, div2_lt_pow2, H.
Qed.

Lemma bit_count_bits_of : forall e, wfb e = true -> bit_count (bits_of e) = weight e.
Proof.
  induction e as [|b e IH]; intros W; [reflexivity|]. apply wfb_cons in W. destruct W as [Hb W].
  rewrite bits_of_cons, bit_count_app, IH by exact W. simpl weight. f_equal.
  apply (bit_count_byte_bits 8), Hb.
Qed.

Lemma bit_count_0 : forall l, bit_count l = O -> l = repeat false (length l).
Proof.
  induction l as [|c l IH]; intros H; [reflexivity|]. simpl in *.
  destruct c; [discriminate|]. f_equal. apply IH. exact H.
Qed.

Lemma bit_count_S : forall l n, bit_count l = S n ->
  exists i l', l = repeat false i ++ true :: l' /\ bit_count l' = n.
Proof.
  induction l as [|c l IH]; intros n H; [discriminate|]. simpl in H. destruct c.
  - exists O, l. split; [reflexivity|]. simpl in H. congruence.
  - destruct (IH n H) as (i & l' & -> & C). exists (S i), l'. split; [reflexivity|exact C].
Qed.

Definition orbit_step (start : N) (o : option N) : option N :=
  match o with
  | Some s => let s' := crc_shift s in if s' =? start then None else Some s'
  | None => None
  end.
Definition orbit_walk (start n : N) : option N := N.iter n (orbit_step start) (Some start).

Lemma orbit_walk_sound start n : orbit_walk start n <> None ->
  orbit_walk start n = Some (N.iter n crc_shift start) /\
  forall k, 0 < k <= n -> N.iter k crc_shift start <> start.
Proof.
  unfold orbit_walk. induction n as [|n IH] using N.peano_ind; intros H; [split; [reflexivity|lia]|].
  rewrite !N.iter_succ in *.
  destruct (N.iter n (orbit_step start) (Some start)) as [s|]; [|now elim H].
  destruct IH as [[= ->] IH]; [discriminate|]. cbn [orbit_step] in *.
  destruct (N.eqb_spec (crc_shift (N.iter n crc_shift start)) start) as [|NE]; [now elim H|].
  split; [reflexivity|]. intros k Hk.
  destruct (N.eq_dec k (N.succ n)) as [->|]; [now rewrite N.iter_succ | apply IH; lia].
Qed.

Lemma orbit_walk_poly : orbit_walk crc_poly 32766 <> None.
Proof. vm_compute. discriminate. Qed.

Lemma iter_shift_N n s : iter_shift (N.to_nat n) s = N.iter n crc_shift s.
Proof.
  induction n as [|n IH] using N.peano_ind; [reflexivity|].
  rewrite N2Nat.inj_succ, N.iter_succ, <- IH, <- Nat.add_1_r. apply iter_shift_add.
Qed.

(* 32767 = 2^15 - 1 is where crc_poly recurs (found by computation); only "not before" is needed *)
Lemma orbit_poly d : (0 < d)%nat -> N.of_nat d < 32767 -> iter_shift d crc_poly <> crc_poly.
Proof.
  intros H0 H. rewrite <- (Nat2N.id d), iter_shift_N.
  apply (orbit_walk_sound crc_poly 32766 orbit_walk_poly). lia.
Qed.

Lemma feed_bits_11 m :
  feed_bits 0 (true :: repeat false m ++ [true]) = N.lxor (iter_shift (S m) crc_poly) crc_poly.
Proof.
  (* bit_feed 0 true computes to crc_poly *)
  change (feed_bits 0 (true :: ?l)) with (feed_bits crc_poly l).
  rewrite feed_bits_app, feed_bits_zeros. cbn [feed_bits fold_left]. rewrite bit_feed_true.
  now rewrite <- Nat.add_1_r, iter_shift_add.
Qed.

Lemma feed_bits_two i m k :
  N.of_nat (S m) < 32767 ->
  feed_bits 0 (repeat false i ++ true :: repeat false m ++ true :: repeat false k) <> 0.
Proof.
  intros H. change (true :: repeat false k) with ([true] ++ repeat false k).
  rewrite app_assoc. apply feed_bits_pad. rewrite feed_bits_11, N.lxor_eq_0_iff. apply orbit_poly; lia.
Qed.

Lemma pad_length i (l : list bool) : length (repeat false i ++ true :: l) = S (i + length l).
Proof. rewrite app_length, repeat_length. cbn [length]. lia. Qed.

Lemma crc_reg0_double : forall e, wfb e = true -> weight e = 2%nat ->
  8 * N.of_nat (length e) < 32767 -> crc_reg 0 e <> 0.
Proof.
  intros e W H2 L. rewrite crc_reg_bits by exact W.
  pose proof (bits_of_length e) as BL. rewrite <- bit_count_bits_of in H2 by exact W.
  destruct (bit_count_S _ _ H2) as (i & l1 & E1 & C1).
  destruct (bit_count_S _ _ C1) as (m & l2 & E2 & C2).
  apply bit_count_0 in C2. rewrite E1, E2, C2 in *.
  apply feed_bits_two. rewrite !pad_length, repeat_length in BL. lia.
Qed.

Lemma first_set_decomp : forall l i, first_set l = Some i ->
  exists A, l = repeat false i ++ true :: A.
Proof.
  induction l as [|c l IH]; intros i H; [discriminate|]. simpl in H. destruct c.
  - injection H as <-. exists l. reflexivity.
  - destruct (first_set l) as [i'|]; [|discriminate]. injection H as <-.
    destruct (IH i' eq_refl) as (A & ->). exists A. reflexivity.
Qed.

Lemma rev_repeat {A} (x : A) n : rev (repeat x n) = repeat x n.
Proof. induction n as [|n IH]; [reflexivity|]. simpl. rewrite IH. symmetry. apply repeat_cons. Qed.

Lemma last_set_decomp l j : last_set l = Some j ->
  exists B k, l = B ++ true :: repeat false k /\ length B = j.
Proof.
  unfold last_set. destruct (first_set (rev l)) as [i|] eqn:F; [|discriminate].
  intros H. injection H as <-.
  destruct (first_set_decomp _ _ F) as (A & E).
  apply (f_equal (@rev bool)) in E. rewrite rev_involutive, rev_app_distr in E.
  cbn [rev] in E. rewrite rev_repeat, <- app_assoc in E. cbn [app] in E.
  exists (rev A), i. split; [exact E|].
  rewrite E, app_length. cbn [length]. rewrite repeat_length. lia.
Qed.

Lemma burst_shape l i j : first_set l = Some i -> last_set l = Some j ->
  exists w k, l = repeat false i ++ true :: w ++ repeat false k /\ (length w <= j - i)%nat.
Proof.
  intros F La. destruct (first_set_decomp _ _ F) as (A & E1).
  destruct (last_set_decomp _ _ La) as (B & k & E2 & <-).
  rewrite E1 in E2. apply app_eq_app in E2.
  destruct E2 as (m & [[E3 E4]|[-> E4]]); destruct m as [|x m]; injection E4 as E4; subst.
  - exists [], k. split; [reflexivity|simpl; lia].
  - (* the last 1 would lie among the leading zeros *) apply repeat_eq_elt in E3. now destruct E3.
  - exists [], k. split; [reflexivity|simpl; lia].
  - (* the last 1 lies behind the first *)
    exists (m ++ [true]), k. split; [now rewrite <- app_assoc|].
    rewrite !app_length, repeat_length. cbn [length]. lia.
Qed.

Lemma crc_reg0_burst16 : forall e, wfb e = true -> (0 < burst_len e <= 16)%nat ->
  crc_reg 0 e <> 0.
Proof.
  intros e W H. rewrite crc_reg_bits by exact W. unfold burst_len in H.
  destruct (first_set (bits_of e)) as [i|] eqn:F; [|lia].
  destruct (last_set (bits_of e)) as [j|] eqn:La; [|lia].
  destruct (burst_shape _ i j F La) as (w & k & -> & Lw).
  apply feed_bits_pad. rewrite feed_bits_zero_iff by (cbn [length]; lia).
  cbn [bits_val N.b2n]. lia.
Qed.
