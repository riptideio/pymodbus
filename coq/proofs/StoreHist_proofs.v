(* StoreHist_proofs.v — for every block (any start and size, any key set without duplicates) and every sequence of validate /
   get / set / reset / iterate operations, what the model returns satisfies the abstract-map oracle
   [prop_block] that the correspondence check applies to the real classes: the executable oracle is a
   consequence of the model for all histories, not only for the sampled ones. *)
From PM.theories Require Import Base Store CorrStore.
From PM.Generated Require Import GenStore.
From PM.proofs Require Import Base_proofs Store_proofs.
Open Scope list_scope.
Open Scope Z_scope.

(* the oracle's write is the sparse block's write loop, so its laws are those of Store_proofs *)
Lemma sp_set_from_spec d a idx vs : sp_set_from code d a idx vs = spec_set d (a + idx) vs.
Proof.
  revert d idx. induction vs as [|v vs IH]; intros d idx; [reflexivity|].
  rewrite sp_set_from_cons, IH. cbn [spec_set]. f_equal. lia.
Qed.

Lemma spec_set_get s a vs k :
  d_get (spec_set s a vs) k =
    if (a <=? k) && (k <? a + Z.of_nat (length vs)) then nth_error vs (Z.to_nat (k - a)) else d_get s k.
Proof. rewrite <- (Z.add_0_r a) at 1. rewrite <- sp_set_from_spec, sp_set_from_get, Z.add_0_r. reflexivity. Qed.

Lemma spec_set_keys s a vs :
  forallb (d_mem s) (zrange a (length vs)) = true -> map fst (spec_set s a vs) = map fst s.
Proof.
  rewrite forallb_zrange. intros H. rewrite <- (Z.add_0_r a), <- sp_set_from_spec. apply sp_set_from_keys.
  intros i Hi. rewrite Z.add_0_r. apply d_mem_cell, H, Hi.
Qed.

Lemma spec_get_lookups d ks : forall vs, map Some vs = map (d_get d) ks -> vs = spec_get d ks.
Proof.
  induction ks as [|k ks IH]; intros [|v vs] H; try discriminate H; [reflexivity|].
  cbn [map] in H. injection H as H0 H. cbn [spec_get]. rewrite <- H0. f_equal. apply IH, H.
Qed.

Lemma d_get_notin (d : dict) k : ~ In k (map fst d) -> d_get d k = None.
Proof.
  induction d as [|[k0 v0] d IH]; cbn [map fst In d_get]; intros H; [reflexivity|].
  destruct (Z.eqb_spec k0 k); [tauto|apply IH; tauto].
Qed.

Lemma dict_ext (d1 : dict) : forall d2,
  map fst d1 = map fst d2 -> NoDup (map fst d1) -> (forall k, d_get d1 k = d_get d2 k) -> d1 = d2.
Proof.
  induction d1 as [|[k v] d1 IH]; intros [|[k' v'] d2] Hk Hn Hg; try discriminate Hk; [reflexivity|].
  cbn [map fst] in Hk, Hn. injection Hk as <- Hk. inversion Hn as [|? ? Hnot Hn']; subst.
  pose proof (Hg k) as H0. cbn [d_get] in H0. rewrite Z.eqb_refl in H0. injection H0 as <-.
  f_equal. apply IH; [exact Hk|exact Hn'|]. intros j. specialize (Hg j). cbn [d_get] in Hg.
  destruct (Z.eqb_spec k j) as [E|_]; [subst j|exact Hg].
  rewrite !d_get_notin by (try rewrite <- Hk; exact Hnot). reflexivity.
Qed.

Lemma d_get_in_nodup (d : dict) k v :
  NoDup (map fst d) -> In (k, v) d -> d_get d k = Some v.
Proof.
  induction d as [|[k0 v0] d IH]; intros Hn Hin; [destruct Hin|].
  cbn [map fst] in Hn. inversion Hn as [|? ? Hnot Hn']; subst.
  cbn [d_get]. destruct Hin as [Heq|Hin].
  - injection Heq as -> ->. rewrite Z.eqb_refl. reflexivity.
  - destruct (k0 =? k) eqn:E.
    + apply Z.eqb_eq in E. subst. exfalso. apply Hnot.
      change k with (fst (k, v)). apply in_map, Hin.
    + apply IH; assumption.
Qed.

Lemma same_cells_refl (s : dict) : NoDup (map fst s) -> same_cells s s = true.
Proof.
  intros Hn. unfold same_cells. rewrite Nat.eqb_refl. cbn [andb].
  apply forallb_forall. intros [k v] Hin. cbn [fst snd].
  rewrite (d_get_in_nodup s k v Hn Hin). cbn. apply Z.eqb_refl.
Qed.

Lemma zrange_nodup lo n : NoDup (zrange lo n).
Proof.
  revert lo. induction n as [|n IH]; intros lo; [constructor|].
  cbn [zrange]. constructor; [|apply IH].
  intros Hin. apply in_zrange in Hin. lia.
Qed.

Lemma seq_iter_nodup b : NoDup (map fst (seq_iter b)).
Proof. rewrite seq_iter_keys. apply zrange_nodup. Qed.

Definition keys_ok (b : block) : Prop := NoDup (map fst (blk_iter b)).

Lemma validate_is_accepts b a c : 1 <= c ->
  blk_validate code b a c = spec_accepts (blk_iter b) a c.
Proof.
  intros Hc. unfold spec_accepts. replace (1 <=? c) with true by lia. apply blk_validate_mem, Hc.
Qed.

Lemma accepts_valid b a c : spec_accepts (blk_iter b) a c = true ->
  1 <= c /\ blk_validate code b a c = true.
Proof.
  intros H. assert (Hc : 1 <= c) by (apply andb_true_iff in H as [H _]; lia).
  rewrite validate_is_accepts by exact Hc. auto.
Qed.

Lemma get_is_spec b a c : spec_accepts (blk_iter b) a c = true ->
  blk_get code b a c = Ok (spec_get (blk_iter b) (zrange a (Z.to_nat c))).
Proof.
  intros Hacc. destruct (accepts_valid _ _ _ Hacc) as [Hc Hv].
  destruct (blk_get_cells b a c Hc Hv) as (vs & -> & Hvs). f_equal. apply spec_get_lookups, Hvs.
Qed.

Lemma set_keys b a vs : spec_accepts (blk_iter b) a (Z.of_nat (length vs)) = true ->
  map fst (blk_iter (blk_set code b a vs)) = map fst (blk_iter b).
Proof.
  intros Hacc. destruct (accepts_valid _ _ _ Hacc) as [Hc Hv].
  apply blk_set_keys, Hv.
Qed.

Lemma set_is_spec b a vs : keys_ok b -> spec_accepts (blk_iter b) a (Z.of_nat (length vs)) = true ->
  blk_iter (blk_set code b a vs) = spec_set (blk_iter b) a vs.
Proof.
  intros Hk Hacc. pose proof (set_keys b a vs Hacc) as Hkeys.
  destruct (accepts_valid _ _ _ Hacc) as [_ Hv].
  apply andb_true_iff in Hacc as [_ Hm]. rewrite Nat2Z.id in Hm.
  apply dict_ext.
  - rewrite Hkeys, spec_set_keys by exact Hm. reflexivity.
  - rewrite Hkeys. exact Hk.
  - intros k. rewrite blk_set_get, spec_set_get by exact Hv. reflexivity.
Qed.

Lemma combine_map_r {A B C} (f : B -> C) (l : list A) (vals : list B) :
  combine l (map f vals) = map (fun kv => (fst kv, f (snd kv))) (combine l vals).
Proof.
  revert vals. induction l as [|x l IH]; intros [|v vals]; cbn; try reflexivity. now rewrite IH.
Qed.

Lemma reset_is_spec b :
  blk_iter (blk_reset b) = map (fun kv => (fst kv, blk_default b)) (blk_iter b).
Proof.
  destruct b as [s|s]; cbn [blk_reset blk_iter blk_default].
  - unfold seq_iter, seq_reset. cbn [sb_addr sb_vals sb_def]. rewrite map_length.
    rewrite combine_map_r. reflexivity.
  - reflexivity.
Qed.

Lemma default_set b a vs : blk_default (blk_set code b a vs) = blk_default b.
Proof. destruct b; reflexivity. Qed.
Lemma default_reset b : blk_default (blk_reset b) = blk_default b.
Proof. destruct b; reflexivity. Qed.

Lemma keys_ok_set b a vs : keys_ok b -> spec_accepts (blk_iter b) a (Z.of_nat (length vs)) = true ->
  keys_ok (blk_set code b a vs).
Proof. unfold keys_ok. intros Hk Hacc. rewrite set_keys by exact Hacc. exact Hk. Qed.

Lemma keys_ok_reset b : keys_ok b -> keys_ok (blk_reset b).
Proof.
  unfold keys_ok. intros Hk. rewrite reset_is_spec, map_map. cbn [fst]. exact Hk.
Qed.

Lemma dset_all_keys kvs : forall d,
  forallb (fun kv => d_mem d (fst kv)) kvs = true ->
  map fst (fold_left (fun d kv => d_set d (fst kv) (snd kv)) kvs d) = map fst d.
Proof.
  induction kvs as [|[k v] kvs IH]; intros d H; [reflexivity|].
  cbn [forallb fst] in H. apply andb_true_iff in H as [Hk Hr].
  cbn [fold_left fst snd]. rewrite IH.
  - apply d_set_keys_mem, d_mem_cell, Hk.
  - apply forallb_forall. intros [k' v'] Hin. rewrite forallb_forall in Hr.
    specialize (Hr (k', v') Hin). cbn [fst] in *. unfold d_mem in *. rewrite d_get_set.
    destruct (k =? k'); [reflexivity|exact Hr].
Qed.

(* the dictionary form of setValues is only meaningful (and only generated) for sparse blocks *)
Definition is_dict_op (o : bop) : bool := match o with BSetDict _ => true | _ => false end.
Definition dict_ok (b : block) (ops : list bop) : bool :=
  match b with BSp _ => true | BSeq _ => forallb (fun o => negb (is_dict_op o)) ops end.

Lemma dict_ok_tail b o ops : dict_ok b (o :: ops) = true -> dict_ok b ops = true.
Proof.
  destruct b; cbn [dict_ok forallb]; [|reflexivity]. intros H. apply andb_true_iff in H as [_ H]. exact H.
Qed.

Lemma set_step b a vs ops :
  keys_ok b -> dict_ok b ops = true -> spec_accepts (blk_iter b) a (Z.of_nat (length vs)) = true ->
  (forall b', keys_ok b' -> dict_ok b' ops = true ->
     prop_block (blk_default b') (blk_iter b') ops (run_block code b' ops) = true) ->
  prop_block (blk_default b) (spec_set (blk_iter b) a vs) ops (run_block code (blk_set code b a vs) ops) = true.
Proof.
  intros Hk Hd Hacc IH. rewrite <- set_is_spec, <- (default_set b a vs) by assumption.
  apply IH; [apply keys_ok_set; assumption|destruct b; exact Hd].
Qed.

Theorem model_satisfies_oracle ops : forall b,
  keys_ok b -> dict_ok b ops = true ->
  prop_block (blk_default b) (blk_iter b) ops (run_block code b ops) = true.
Proof.
  induction ops as [|o ops IH]; intros b Hk Hd; [reflexivity|].
  pose proof (dict_ok_tail b o ops Hd) as Hd'. pose proof (IH b Hk Hd') as IHb.
  destruct o as [a c|a c|a vs| | |a v|kvs]; cbn [run_block step_block prop_block].
  - (* validate *)
    rewrite IHb, andb_true_r.
    destruct (1 <=? c) eqn:Ec; [|reflexivity].
    rewrite validate_is_accepts by lia. cbn. apply eqb_reflx.
  - (* get *)
    rewrite IHb, andb_true_r.
    destruct (spec_accepts (blk_iter b) a c) eqn:Eacc; [|reflexivity].
    rewrite get_is_spec by exact Eacc. cbn. apply list_eqb_refl, Z.eqb_refl.
  - (* set *)
    destruct (spec_accepts (blk_iter b) a (Z.of_nat (length vs))) eqn:Eacc; [|reflexivity].
    apply set_step; assumption.
  - (* reset *)
    cbn [bout_eqb andb]. rewrite <- reset_is_spec.
    rewrite <- (default_reset b) at 1. apply IH; [apply keys_ok_reset, Hk|destruct b; exact Hd'].
  - (* iter *)
    rewrite IHb, andb_true_r. apply same_cells_refl, Hk.
  - (* scalar set = set of a one-element list *)
    change 1 with (Z.of_nat (length [v])).
    destruct (spec_accepts (blk_iter b) a (Z.of_nat (length [v]))) eqn:Eacc; [|reflexivity].
    apply (set_step b a [v]); assumption.
  - (* dictionary-form set: sparse blocks only *)
    destruct b as [sq|sp].
    + cbn [dict_ok forallb is_dict_op negb andb] in Hd. discriminate Hd.
    + cbn [blk_iter blk_default]. unfold sp_iter.
      destruct (forallb (fun kv => d_mem (sp_vals sp) (fst kv)) kvs) eqn:Eall; [|reflexivity].
      cbn [bout_eqb andb].
      apply (IH (BSp {| sp_vals := fold_left _ kvs (sp_vals sp); sp_def := sp_def sp |})); [|reflexivity].
      unfold keys_ok in *. cbn [blk_iter sp_iter sp_vals] in *. rewrite dset_all_keys by exact Eall. exact Hk.
Qed.
