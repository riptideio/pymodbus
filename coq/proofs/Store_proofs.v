(* Store_proofs.v — the datastore model instantiated with the generated code record [GenStore.code]:
   list facts first, then sequential blocks, sparse blocks, blocks of either kind, the slave context's
   address offset and the server context.  The first lemmas about each class say what one generated
   expression computes (by conversion: a changed comparison, offset or slice bound makes them fail);
   what follows them is about lists and dictionaries. *)
From PM.theories Require Import Base Expr Store.
From PM.Generated Require Import GenStore.
From PM.proofs Require Import Base_proofs.
From Coq Require Import ZifyBool.
Open Scope list_scope.
Open Scope Z_scope.

Lemma z2b_land_b2z a b : z2b (Z.land (b2z a) (b2z b)) = a && b.
Proof. destruct a, b; reflexivity. Qed.

Lemma py_slice_inrange {A} (l : list A) lo hi :
  0 <= lo -> lo <= hi -> hi <= Z.of_nat (length l) ->
  py_slice l lo hi = firstn (Z.to_nat (hi - lo)) (skipn (Z.to_nat lo) l).
Proof.
  intros H1 H2 H3. unfold py_slice, norm_idx.
  destruct (lo <? 0) eqn:E1; [lia|]. destruct (hi <? 0) eqn:E2; [lia|].
  rewrite !Z.min_l by lia. rewrite Z.max_r by lia. reflexivity.
Qed.

Lemma py_slice_assign_inrange {A} (l vs : list A) lo hi :
  0 <= lo -> lo <= hi -> hi <= Z.of_nat (length l) ->
  py_slice_assign l lo hi vs = firstn (Z.to_nat lo) l ++ vs ++ skipn (Z.to_nat hi) l.
Proof.
  intros H1 H2 H3. unfold py_slice_assign, norm_idx.
  destruct (lo <? 0) eqn:E1; [lia|]. destruct (hi <? 0) eqn:E2; [lia|].
  rewrite !Z.min_l by lia. rewrite Z.max_r by lia. reflexivity.
Qed.

Lemma nth_error_skipn {A} (l : list A) n i : nth_error (skipn n l) i = nth_error l (n + i).
Proof.
  revert l. induction n as [|n IH]; intros l; [reflexivity|].
  destruct l as [|x l]; [destruct i; reflexivity|]. apply IH.
Qed.

Lemma nth_error_firstn_lt {A} (l : list A) n i : (i < n)%nat -> nth_error (firstn n l) i = nth_error l i.
Proof.
  revert l i. induction n as [|n IH]; intros l i Hi; [lia|].
  destruct l as [|x l]; [destruct i; reflexivity|]. destruct i; [reflexivity|]. cbn [firstn nth_error]. apply IH. lia.
Qed.

Lemma skipn_nth_cons {A} (l : list A) i x : nth_error l i = Some x -> skipn i l = x :: skipn (S i) l.
Proof.
  revert i. induction l as [|y l IH]; intros [|i] H; try discriminate H.
  - injection H as ->. reflexivity.
  - apply IH, H.
Qed.

Lemma nth_error_splice {A} (l vs : list A) s i :
  (s + length vs <= length l)%nat ->
  nth_error (firstn s l ++ vs ++ skipn (s + length vs) l) i =
    if (Nat.leb s i) && (Nat.ltb i (s + length vs)) then nth_error vs (i - s) else nth_error l i.
Proof.
  intros Hl.
  destruct (Nat.leb s i) eqn:E1; cbn [andb].
  - apply Nat.leb_le in E1.
    rewrite nth_error_app2 by (rewrite firstn_length; lia).
    rewrite firstn_length, Nat.min_l by lia.
    destruct (Nat.ltb i (s + length vs)) eqn:E2.
    + apply Nat.ltb_lt in E2. rewrite nth_error_app1 by lia. reflexivity.
    + apply Nat.ltb_ge in E2. rewrite nth_error_app2 by lia.
      rewrite nth_error_skipn. f_equal. lia.
  - apply Nat.leb_gt in E1.
    rewrite nth_error_app1 by (rewrite firstn_length; lia).
    apply nth_error_firstn_lt. exact E1.
Qed.

Lemma nth_error_zrange lo n i : (i < n)%nat -> nth_error (zrange lo n) i = Some (lo + Z.of_nat i).
Proof.
  revert lo i. induction n as [|n IH]; intros lo i Hi; [lia|].
  destruct i; cbn [zrange nth_error]; [f_equal; lia|].
  rewrite IH by lia. f_equal. lia.
Qed.

(* looking an address up in a run of values that starts at [lo]: the first value, or the rest *)
Lemma run_lookup_cons {A} (v : A) vs lo k (other : option A) :
  (if (lo <=? k) && (k <? lo + Z.of_nat (length (v :: vs))) then nth_error (v :: vs) (Z.to_nat (k - lo)) else other) =
  if lo =? k then Some v
  else if (lo + 1 <=? k) && (k <? lo + 1 + Z.of_nat (length vs)) then nth_error vs (Z.to_nat (k - (lo + 1))) else other.
Proof.
  cbn [length]. rewrite Nat2Z.inj_succ. destruct (Z.eqb_spec lo k) as [<-|Hne].
  - replace ((lo <=? lo) && (lo <? lo + Z.succ (Z.of_nat (length vs)))) with true by lia.
    rewrite Z.sub_diag. reflexivity.
  - destruct ((lo + 1 <=? k) && (k <? lo + 1 + Z.of_nat (length vs))) eqn:E.
    + replace ((lo <=? k) && (k <? lo + Z.succ (Z.of_nat (length vs)))) with true by lia.
      replace (k - lo) with (Z.succ (k - (lo + 1))) by lia. rewrite Z2Nat.inj_succ by lia. reflexivity.
    + replace ((lo <=? k) && (k <? lo + Z.succ (Z.of_nat (length vs)))) with false by lia. reflexivity.
Qed.

Lemma run_lookup_nil {A} lo k (other : option A) :
  (if (lo <=? k) && (k <? lo + Z.of_nat (@length A [])) then nth_error [] (Z.to_nat (k - lo)) else other) = other.
Proof. replace ((lo <=? k) && (k <? lo + Z.of_nat (@length A []))) with false by (cbn [length]; lia). reflexivity. Qed.

Definition seq_len (b : seqblock) : Z := Z.of_nat (length (sb_vals b)).

Definition seq_cell (b : seqblock) (k : Z) : option Z :=
  if (sb_addr b <=? k) && (k <? sb_addr b + seq_len b)
  then nth_error (sb_vals b) (Z.to_nat (k - sb_addr b)) else None.

Definition seq_populated (b : seqblock) (k : Z) : Prop := sb_addr b <= k < sb_addr b + seq_len b.

Lemma seq_validate_arith b a c :
  seq_validate code b a c = (sb_addr b <=? a) && (sb_addr b + seq_len b >=? a + c).
Proof. apply z2b_land_b2z. Qed.

Lemma seq_get_eq b a c :
  seq_get code b a c = py_slice (sb_vals b) (a - sb_addr b) (a - sb_addr b + c).
Proof. reflexivity. Qed.

Lemma seq_set_eq b a vs :
  sb_vals (seq_set code b a vs) =
    py_slice_assign (sb_vals b) (a - sb_addr b) (a - sb_addr b + Z.of_nat (length vs)) vs.
Proof. reflexivity. Qed.

Lemma seq_validate_cells b a c : 1 <= c ->
  (seq_validate code b a c = true <-> forall i, 0 <= i < c -> seq_populated b (a + i)).
Proof.
  intros Hc. rewrite seq_validate_arith. unfold seq_populated. split.
  - intros H i Hi. lia.
  - intros H. pose proof (H 0 ltac:(lia)). pose proof (H (c - 1) ltac:(lia)). lia.
Qed.

(* An accepted range is [n] values at an offset [s] into the block.  The lemmas are proved on offsets
   (nat), where [firstn], [skipn] and [nth_error] live (and where [lia] is cheap: no [Z.to_nat]);
   the statements about addresses follow by this change of variables. *)
Lemma seq_valid_offset b a c :
  seq_validate code b a c = true -> 0 <= c ->
  exists s n, a = sb_addr b + Z.of_nat s /\ c = Z.of_nat n /\ (s + n <= length (sb_vals b))%nat.
Proof.
  rewrite seq_validate_arith. unfold seq_len. intros Hv Hc.
  exists (Z.to_nat (a - sb_addr b)), (Z.to_nat c). lia.
Qed.

Lemma seq_cell_at b i : seq_cell b (sb_addr b + Z.of_nat i) = nth_error (sb_vals b) i.
Proof.
  unfold seq_cell, seq_len. replace (sb_addr b + Z.of_nat i - sb_addr b) with (Z.of_nat i) by lia.
  rewrite Nat2Z.id. destruct (_ && _) eqn:E; [reflexivity|]. symmetry. apply nth_error_None. lia.
Qed.

Lemma seq_cell_below b k : k < sb_addr b -> seq_cell b k = None.
Proof. intros H. unfold seq_cell. replace (sb_addr b <=? k) with false by lia. reflexivity. Qed.

Lemma seq_get_at b s n : (s + n <= length (sb_vals b))%nat ->
  seq_get code b (sb_addr b + Z.of_nat s) (Z.of_nat n) = firstn n (skipn s (sb_vals b)).
Proof.
  intros H. rewrite seq_get_eq. replace (sb_addr b + Z.of_nat s - sb_addr b) with (Z.of_nat s) by lia.
  rewrite py_slice_inrange by lia. replace (Z.of_nat s + Z.of_nat n - Z.of_nat s) with (Z.of_nat n) by lia.
  rewrite !Nat2Z.id. reflexivity.
Qed.

Lemma seq_cells_at b n : forall s, (s + n <= length (sb_vals b))%nat ->
  map (seq_cell b) (zrange (sb_addr b + Z.of_nat s) n) = map Some (firstn n (skipn s (sb_vals b))).
Proof.
  induction n as [|n IH]; intros s H; [reflexivity|]. cbn [zrange map]. rewrite seq_cell_at.
  replace (sb_addr b + Z.of_nat s + 1) with (sb_addr b + Z.of_nat (S s)) by lia. rewrite IH by lia.
  destruct (nth_error (sb_vals b) s) as [x|] eqn:En; [|apply nth_error_None in En; lia].
  rewrite (skipn_nth_cons _ _ _ En). reflexivity.
Qed.

Theorem seq_get_cells b a c :
  seq_validate code b a c = true -> 0 <= c ->
  map Some (seq_get code b a c) = map (seq_cell b) (zrange a (Z.to_nat c)).
Proof.
  intros Hv Hc. destruct (seq_valid_offset b a c Hv Hc) as (s & n & -> & -> & H).
  rewrite Nat2Z.id, seq_get_at, seq_cells_at by exact H. reflexivity.
Qed.

Theorem seq_get_nth b a c i :
  seq_validate code b a c = true -> 0 <= i < c ->
  nth_error (seq_get code b a c) (Z.to_nat i) = seq_cell b (a + i).
Proof.
  intros Hv Hi. pose proof (f_equal (fun l => nth_error l (Z.to_nat i)) (seq_get_cells b a c Hv ltac:(lia))) as H.
  cbv beta in H. rewrite !nth_error_map, nth_error_zrange, Z2Nat.id in H by (try apply Z2Nat.inj_lt; lia).
  destruct (nth_error _ _); [injection H as <-; reflexivity|discriminate H].
Qed.

Lemma seq_set_at b s vs : (s + length vs <= length (sb_vals b))%nat ->
  sb_vals (seq_set code b (sb_addr b + Z.of_nat s) vs) =
    firstn s (sb_vals b) ++ vs ++ skipn (s + length vs) (sb_vals b).
Proof.
  intros H. rewrite seq_set_eq. replace (sb_addr b + Z.of_nat s - sb_addr b) with (Z.of_nat s) by lia.
  rewrite py_slice_assign_inrange by lia. rewrite <- Nat2Z.inj_add, !Nat2Z.id. reflexivity.
Qed.

Lemma seq_valid_write b a (vs : list Z) :
  seq_validate code b a (Z.of_nat (length vs)) = true ->
  exists s, a = sb_addr b + Z.of_nat s /\ (s + length vs <= length (sb_vals b))%nat.
Proof.
  intros Hv. destruct (seq_valid_offset b a _ Hv (Nat2Z.is_nonneg (length vs))) as (s & n & -> & Hn & H).
  apply Nat2Z.inj in Hn. subst n. eauto.
Qed.

Theorem seq_set_extent b a vs :
  seq_validate code b a (Z.of_nat (length vs)) = true ->
  sb_addr (seq_set code b a vs) = sb_addr b /\
  length (sb_vals (seq_set code b a vs)) = length (sb_vals b) /\
  sb_def (seq_set code b a vs) = sb_def b.
Proof.
  intros Hv. split; [reflexivity|]. split; [|reflexivity].
  destruct (seq_valid_write b a vs Hv) as (s & -> & H).
  rewrite seq_set_at, !app_length, firstn_length, skipn_length by exact H. lia.
Qed.

Theorem seq_set_cells b a vs k :
  seq_validate code b a (Z.of_nat (length vs)) = true ->
  seq_cell (seq_set code b a vs) k =
    if (a <=? k) && (k <? a + Z.of_nat (length vs))
    then nth_error vs (Z.to_nat (k - a)) else seq_cell b k.
Proof.
  intros Hv. destruct (seq_valid_write b a vs Hv) as (s & -> & H).
  destruct (Z_lt_le_dec k (sb_addr b)) as [Hk|Hk].
  - rewrite !seq_cell_below by exact Hk. replace (sb_addr b + Z.of_nat s <=? k) with false by lia. reflexivity.
  - replace k with (sb_addr b + Z.of_nat (Z.to_nat (k - sb_addr b))) by lia.
    generalize (Z.to_nat (k - sb_addr b)). intros i.
    etransitivity; [apply (seq_cell_at (seq_set code b _ vs) i)|].
    rewrite seq_cell_at, seq_set_at, nth_error_splice by exact H.
    replace ((sb_addr b + Z.of_nat s <=? sb_addr b + Z.of_nat i) &&
             (sb_addr b + Z.of_nat i <? sb_addr b + Z.of_nat s + Z.of_nat (length vs)))
      with (Nat.leb s i && Nat.ltb i (s + length vs)) by lia.
    destruct (Nat.leb s i && Nat.ltb i (s + length vs)) eqn:E; [|reflexivity]. f_equal. lia.
Qed.

Definition sp_cell (b : spblock) (k : Z) : option Z := d_get (sp_vals b) k.

Lemma sp_validate_eq b a c :
  sp_validate code b a c = if c =? 0 then false else forallb (d_mem (sp_vals b)) (py_range a (a + c)).
Proof. rewrite <- (z2b_b2z (c =? 0)). reflexivity. Qed.

Lemma sp_get_eq b a c : sp_get code b a c = d_get_all (sp_vals b) (py_range a (a + c)).
Proof. reflexivity. Qed.

Lemma sp_set_from_cons d a idx v t :
  sp_set_from code d a idx (v :: t) = sp_set_from code (d_set d (a + idx) v) a (idx + 1) t.
Proof. reflexivity. Qed.

Lemma py_range_from a c : py_range a (a + c) = zrange a (Z.to_nat c).
Proof. unfold py_range. do 2 f_equal. lia. Qed.

Lemma d_mem_cell d k : d_mem d k = true <-> d_get d k <> None.
Proof. unfold d_mem. destruct (d_get d k); split; congruence. Qed.

Theorem sp_validate_cells b a c : 1 <= c ->
  (sp_validate code b a c = true <-> forall i, 0 <= i < c -> sp_cell b (a + i) <> None).
Proof.
  intros Hc. rewrite sp_validate_eq, py_range_from. replace (c =? 0) with false by lia.
  rewrite forallb_zrange, Z2Nat.id by lia. unfold sp_cell.
  split; intros H i Hi; apply d_mem_cell, H, Hi.
Qed.

Lemma d_get_all_spec d ks :
  (forall k, In k ks -> d_get d k <> None) ->
  exists vs, d_get_all d ks = Ok vs /\ map Some vs = map (d_get d) ks.
Proof.
  induction ks as [|k ks IH]; intros H.
  - exists []. split; reflexivity.
  - cbn [d_get_all]. pose proof (H k (or_introl eq_refl)) as Hk.
    destruct (d_get d k) as [v|] eqn:E; [|congruence].
    destruct IH as (vs & Hvs & Hm). { intros k' Hk'. apply H. right. exact Hk'. }
    exists (v :: vs). rewrite Hvs. cbn. rewrite E, Hm. split; reflexivity.
Qed.

Theorem sp_get_cells b a c :
  sp_validate code b a c = true ->
  exists vs, sp_get code b a c = Ok vs /\
             map Some vs = map (sp_cell b) (zrange a (Z.to_nat c)).
Proof.
  intros Hv0. rewrite sp_get_eq, py_range_from.
  apply d_get_all_spec. intros k Hk. apply in_zrange in Hk.
  replace k with (a + (k - a)) by lia. apply (proj1 (sp_validate_cells b a c ltac:(lia)) Hv0). lia.
Qed.

Lemma d_get_set d k v k' :
  d_get (d_set d k v) k' = if k =? k' then Some v else d_get d k'.
Proof.
  induction d as [|[k0 v0] d IH]; cbn [d_set d_get].
  - destruct (k =? k') eqn:E; reflexivity.
  - destruct (k0 =? k) eqn:E0; cbn [d_get].
    + destruct (k0 =? k') eqn:E1; destruct (k =? k') eqn:E2; try reflexivity; lia.
    + destruct (k0 =? k') eqn:E1.
      * destruct (k =? k') eqn:E2; [lia|reflexivity].
      * exact IH.
Qed.

Lemma d_set_keys_mem d k v : d_get d k <> None -> map fst (d_set d k v) = map fst d.
Proof.
  induction d as [|[k0 v0] d IH]; cbn [d_set d_get]; intros H.
  - congruence.
  - destruct (k0 =? k) eqn:E; cbn [map fst]; [reflexivity|]. f_equal. apply IH. exact H.
Qed.

Lemma sp_set_from_get d a idx vs k :
  d_get (sp_set_from code d a idx vs) k =
    if (a + idx <=? k) && (k <? a + idx + Z.of_nat (length vs))
    then nth_error vs (Z.to_nat (k - (a + idx))) else d_get d k.
Proof.
  revert d idx. induction vs as [|v vs IH]; intros d idx; [symmetry; apply run_lookup_nil|].
  rewrite sp_set_from_cons, IH, d_get_set, run_lookup_cons, Z.add_assoc.
  destruct (Z.eqb_spec (a + idx) k) as [<-|_]; [|reflexivity].
  replace (a + idx + 1 <=? a + idx) with false by lia. reflexivity.
Qed.

Theorem sp_set_cells b a vs k :
  sp_cell (sp_set code b a vs) k =
    if (a <=? k) && (k <? a + Z.of_nat (length vs))
    then nth_error vs (Z.to_nat (k - a)) else sp_cell b k.
Proof.
  unfold sp_cell, sp_set. cbn [sp_vals]. rewrite sp_set_from_get.
  rewrite Z.add_0_r. reflexivity.
Qed.

Lemma sp_set_from_keys d a idx vs :
  (forall i, 0 <= i < Z.of_nat (length vs) -> d_get d (a + idx + i) <> None) ->
  map fst (sp_set_from code d a idx vs) = map fst d.
Proof.
  revert d idx. induction vs as [|v vs IH]; intros d idx H; [reflexivity|].
  cbn [length] in H. rewrite sp_set_from_cons, IH.
  - apply d_set_keys_mem. rewrite <- (Z.add_0_r (a + idx)). apply H. lia.
  - intros i Hi. rewrite d_get_set.
    destruct (a + idx =? a + (idx + 1) + i); [congruence|].
    replace (a + (idx + 1) + i) with (a + idx + (i + 1)) by lia. apply H. lia.
Qed.

Theorem sp_set_extent b a vs :
  sp_validate code b a (Z.of_nat (length vs)) = true ->
  map fst (sp_vals (sp_set code b a vs)) = map fst (sp_vals b).
Proof.
  intros Hv0.
  assert (Hc : 1 <= Z.of_nat (length vs)) by (destruct vs; [discriminate Hv0|]; cbn [length]; lia).
  pose proof (proj1 (sp_validate_cells b a _ Hc) Hv0) as Hv.
  unfold sp_set. cbn [sp_vals]. apply sp_set_from_keys. intros i Hi.
  rewrite Z.add_0_r. apply Hv. lia.
Qed.

Lemma d_get_combine_zrange vals lo k :
  d_get (combine (zrange lo (length vals)) vals) k =
    if (lo <=? k) && (k <? lo + Z.of_nat (length vals))
    then nth_error vals (Z.to_nat (k - lo)) else None.
Proof.
  revert lo. induction vals as [|v vals IH]; intros lo; [symmetry; apply run_lookup_nil|].
  rewrite run_lookup_cons, <- IH. reflexivity.
Qed.

(* either kind of block is the finite map [d_get (blk_iter b)]: a sparse block by definition, a sequential
   block by this lemma *)
Lemma seq_iter_get b k : d_get (seq_iter b) k = seq_cell b k.
Proof. apply d_get_combine_zrange. Qed.

Lemma seq_iter_mem b k :
  d_mem (seq_iter b) k = (sb_addr b <=? k) && (k <? sb_addr b + seq_len b).
Proof.
  unfold d_mem. rewrite seq_iter_get. unfold seq_cell.
  destruct ((sb_addr b <=? k) && (k <? sb_addr b + seq_len b)) eqn:E; [|reflexivity].
  destruct (nth_error (sb_vals b) (Z.to_nat (k - sb_addr b))) eqn:En; [reflexivity|].
  apply nth_error_None in En. unfold seq_len in E. lia.
Qed.

Lemma seq_iter_keys b : map fst (seq_iter b) = zrange (sb_addr b) (length (sb_vals b)).
Proof.
  unfold seq_iter. generalize (sb_addr b). induction (sb_vals b) as [|v vals IH]; intros lo; [reflexivity|].
  cbn. now rewrite IH.
Qed.

Lemma blk_validate_mem b a c : 1 <= c ->
  blk_validate code b a c = forallb (d_mem (blk_iter b)) (zrange a (Z.to_nat c)).
Proof.
  intros Hc. destruct b as [s|s]; cbn [blk_validate blk_iter].
  - apply Bool.eq_true_iff_eq. rewrite forallb_zrange, Z2Nat.id, seq_validate_cells by lia. unfold seq_populated.
    split; intros H i Hi; specialize (H i Hi); rewrite seq_iter_mem in *; lia.
  - rewrite sp_validate_eq, py_range_from. replace (c =? 0) with false by lia. reflexivity.
Qed.

Lemma blk_get_cells b a c : 1 <= c -> blk_validate code b a c = true ->
  exists vs, blk_get code b a c = Ok vs /\ map Some vs = map (d_get (blk_iter b)) (zrange a (Z.to_nat c)).
Proof.
  intros Hc Hv. destruct b as [s|s]; cbn [blk_validate blk_get blk_iter] in *.
  - eexists. split; [reflexivity|]. rewrite seq_get_cells by (assumption || lia).
    apply map_ext. intros k. symmetry. apply seq_iter_get.
  - apply sp_get_cells, Hv.
Qed.

Lemma blk_set_get b a vs k :
  blk_validate code b a (Z.of_nat (length vs)) = true ->
  d_get (blk_iter (blk_set code b a vs)) k =
    if (a <=? k) && (k <? a + Z.of_nat (length vs)) then nth_error vs (Z.to_nat (k - a)) else d_get (blk_iter b) k.
Proof.
  intros Hv. destruct b as [s|s]; cbn [blk_validate blk_set blk_iter] in *.
  - rewrite !seq_iter_get. apply seq_set_cells. exact Hv.
  - apply sp_set_cells.
Qed.

Lemma blk_set_keys b a vs :
  blk_validate code b a (Z.of_nat (length vs)) = true ->
  map fst (blk_iter (blk_set code b a vs)) = map fst (blk_iter b).
Proof.
  intros Hv. destruct b as [s|s]; cbn [blk_validate blk_set blk_iter] in *.
  - rewrite !seq_iter_keys. destruct (seq_set_extent s a vs Hv) as (-> & -> & _). reflexivity.
  - apply sp_set_extent, Hv.
Qed.

Definition cx_off (x : slavectx) : Z := if cx_zero x then 0 else 1.

(* validate, getValues and setValues shift the address by the same generated expression *)
Lemma cx_addr_offset x a : eval (cx_env x a) (c_ctx_validate_addr code) = a + cx_off x.
Proof.
  unfold cx_off, cx_env. destruct (cx_zero x); [symmetry; apply Z.add_0_r|reflexivity].
Qed.

Theorem cx_validate_offset x fx a c :
  cx_validate code x fx a c =
    (do i <- cx_block_idx code x fx; Ok (blk_validate code (nth_block x i) (a + cx_off x) c)).
Proof. unfold cx_validate. rewrite cx_addr_offset. reflexivity. Qed.

Theorem cx_get_offset x fx a c :
  cx_get code x fx a c =
    (do i <- cx_block_idx code x fx; blk_get code (nth_block x i) (a + cx_off x) c).
Proof.
  unfold cx_get. change (c_ctx_get_addr code) with (c_ctx_validate_addr code).
  rewrite cx_addr_offset. reflexivity.
Qed.

Theorem cx_set_offset x fx a vs :
  cx_set code x fx a vs =
    (do i <- cx_block_idx code x fx;
     Ok {| cx_zero := cx_zero x; cx_slots := cx_slots x;
           cx_blocks := set_nth (cx_blocks x) i (blk_set code (nth_block x i) (a + cx_off x) vs) |}).
Proof.
  unfold cx_set. change (c_ctx_set_addr code) with (c_ctx_validate_addr code).
  rewrite cx_addr_offset. reflexivity.
Qed.

Lemma sv_set_ok_eq s k : beval (sv_env s k) (c_srv_set_ok code) = (247 >=? k) && (k >=? 0).
Proof. apply z2b_b2z. Qed.

Theorem sv_setitem_range s u c :
  sv_single s = false ->
  sv_setitem code s u c =
    if (0 <=? u) && (u <=? 247)
    then Ok {| sv_single := false; sv_slaves := az_set (sv_slaves s) u c |}
    else Raise NoSuchSlaveExc.
Proof.
  intros H. unfold sv_setitem, sv_key. rewrite sv_set_ok_eq, H.
  replace ((247 >=? u) && (u >=? 0)) with ((0 <=? u) && (u <=? 247)) by lia.
  reflexivity.
Qed.

(* [assoc_z] / [az_set] are [d_get] / [d_set] at any value type; the fixpoints of Store.v are not
   convertible, so this repeats [d_get_set] *)
Lemma assoc_az_set {A} (l : list (Z * A)) k v k' :
  assoc_z (az_set l k v) k' = if k =? k' then Some v else assoc_z l k'.
Proof.
  induction l as [|[k0 v0] l IH]; cbn [az_set assoc_z].
  - destruct (k =? k'); reflexivity.
  - destruct (k0 =? k) eqn:E0; cbn [assoc_z].
    + destruct (k0 =? k') eqn:E1; destruct (k =? k') eqn:E2; try reflexivity; lia.
    + destruct (k0 =? k') eqn:E1.
      * destruct (k =? k') eqn:E2; [lia|reflexivity].
      * exact IH.
Qed.
