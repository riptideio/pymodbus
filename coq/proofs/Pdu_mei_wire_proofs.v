(* Pdu_mei_wire_proofs.v — every Read Device Identification response the encoder model emits, paged or
   not, is self-consistent on the wire: the NUMBER OF OBJECTS byte equals the number of (id, length,
   data) objects that follow, and nothing follows them (CorrPdu.mei_wire_ok). *)
From PM.theories Require Import Base Struct PduCls PduSpec Pdu CorrPdu.
From PM.Generated Require Import GenPdu.
From PM.proofs Require Import Base_proofs Pdu_proofs.
Open Scope string_scope.
Open Scope list_scope.
Open Scope Z_scope.

Definition enc1 (kv : Z * bytes) : bytes := u8 (fst kv) ++ u8 (zlen (snd kv)) ++ snd kv.
Definition ok1 (kv : Z * bytes) : Prop := is_u8 (fst kv) = true /\ is_u8 (zlen (snd kv)) = true.

Lemma mei_objs_shape : forall items space n acc objs sp n' oos,
  mei_objs items space n acc = Ok (objs, sp, n', oos) ->
  exists ds, objs = acc ++ flat_map enc1 ds /\ n' = n + zlen ds /\ Forall ok1 ds.
Proof.
  induction items as [|[oid d] t IH]; intros space n acc objs sp n' oos H; cbn [mei_objs] in H.
  - inversion H; subst. exists []. cbn. rewrite app_nil_r. unfold zlen. cbn. split; [reflexivity|]. split; [lia|constructor].
  - destruct (space - (2 + zlen d) <=? 0) eqn:E.
    + inversion H; subst. exists []. cbn. rewrite app_nil_r. unfold zlen. cbn. split; [reflexivity|]. split; [lia|constructor].
    + destruct (pk [FB; FB] [oid; zlen d]) as [h|e] eqn:Eh; cbn [bind] in H; [|discriminate].
      destruct (pk_fields_inv [FB; FB] _ _ eq_refl Eh) as [Hf ->]. cbn [all_fit fits] in Hf. split_andb Hf.
      destruct (IH _ _ _ _ _ _ _ H) as [ds [Hobjs [Hn Hok]]].
      exists ((oid, d) :: ds). split.
      * rewrite Hobjs. cbn [flat_map]. unfold enc1 at 2. cbn [fst snd]. rewrite <- !app_assoc. reflexivity.
      * split.
        -- rewrite Hn. unfold zlen. cbn [length]. lia.
        -- constructor; [split; assumption | exact Hok].
Qed.

Lemma to_nat_zlen (d : bytes) : N.to_nat (Z.to_N (zlen d)) = length d.
Proof. unfold zlen. rewrite <- nat_N_Z, N2Z.id, Nnat.Nat2N.id. reflexivity. Qed.

(* the receiver's view: [count] whole objects and nothing else parse back *)
Lemma parse_objs_ok : forall ds fuel, (length ds < fuel)%nat ->
  mei_objs_ok fuel (N.of_nat (length ds)) (flat_map enc1 ds) = true.
Proof.
  induction ds as [|[oid d] t IH]; intros fuel Hf.
  - destruct fuel as [|f]; [lia|]. reflexivity.
  - destruct fuel as [|f]; [cbn in Hf; lia|].
    cbn [flat_map]. unfold enc1 at 1. cbn [fst snd]. unfold u8. cbn [app].
    cbn [mei_objs_ok].
    replace (N.eqb (N.of_nat (length ((oid, d) :: t))) 0) with false
      by (symmetry; apply N.eqb_neq; cbn [length]; rewrite Nnat.Nat2N.inj_succ; apply N.neq_succ_0).
    cbn [negb andb].
    rewrite to_nat_zlen, app_length.
    replace (Nat.leb (length d) (length d + length (flat_map enc1 t))) with true
      by (symmetry; apply Nat.leb_le; lia).
    cbn [andb]. rewrite skipn_app_exact by reflexivity.
    replace (N.of_nat (length ((oid, d) :: t)) - 1)%N with (N.of_nat (length t))
      by (cbn [length]; rewrite Nnat.Nat2N.inj_succ, <- N.pred_sub, N.pred_succ; reflexivity).
    apply IH. cbn [length] in Hf. lia.
Qed.

Theorem mei_wire_consistent : forall rc cf more next nobj info sl b,
  py_pdu (OMeiRsp 14 rc cf more next nobj info sl) = Ok b -> mei_wire_ok b = true.
Proof.
  intros rc cf more next nobj info sl b H.
  unfold py_pdu in H. cbn [obj_fc class_of] in H.
  change (fc_of ReadDeviceInformationResponse) with (Some 43) in H. cbn [bind] in H.
  change (fc_byte 43) with (@Ok bytes [43%N]) in H. cbn [bind] in H.
  unfold py_encode in H. cbn [encode_st] in H.
  destruct (pk [FB; FB; FB] [14; rc; cf]) as [p|e] eqn:Ep; [|cbn in H; discriminate].
  destruct (pk_fields_inv [FB; FB; FB] _ _ eq_refl Ep) as [_ ->].
  destruct (mei_objs (mei_items info) (253 - 6) 0 []) as [[[[objs sp] n] oos]|e] eqn:Eo; [|cbn in H; discriminate].
  destruct (mei_objs_shape _ _ _ _ _ _ _ _ Eo) as [ds [Hobjs [Hn Hok]]].
  cbn [app] in Hobjs. subst objs.
  set (more' := match oos with Some _ => more_keep_reading | None => more end) in *.
  set (next' := match oos with Some oid => oid | None => next end) in *.
  destruct (pk [FB; FB; FB] [more'; next'; n]) as [q|e] eqn:Eq; [|cbn in H; discriminate].
  destruct (pk_fields_inv [FB; FB; FB] _ _ eq_refl Eq) as [_ ->].
  cbn [fst bind] in H. inversion H as [Hb]. clear H.
  unfold u8. cbn [app]. unfold mei_wire_ok.
  change (Z.to_N 14) with 14%N.
  assert (Hcnt : Z.to_N n = N.of_nat (length ds)).
  { rewrite Hn. unfold zlen. rewrite Z.add_0_l, <- nat_N_Z, N2Z.id. reflexivity. }
  rewrite Hcnt. apply parse_objs_ok.
  pose proof (objects_length ds : (_ <= length (flat_map enc1 ds))%nat). lia.
Qed.
