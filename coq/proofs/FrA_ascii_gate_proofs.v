(* FrA_ascii_gate_proofs.v — C07 at loop level for the ASCII framer: the predicate [ascii_justified] and its
   proof for every delivery of the receive loop, from ANY state. *)
From PM.theories Require Import Base FrBaseA Lrc FrAscii.
From PM.Generated Require Import GenFramerA.
From PM.proofs Require Import Base_proofs FrA_stream_proofs FrA_ascii_proofs.
Open Scope list_scope.
Open Scope Z_scope.

(* d is justified by a span of buf: ':' D c1 c2 CR LF with D, c1 c2 hex, LRC(c1 c2) = LRC of the
   bytes of D, and those bytes are unit :: PDU of d.  (Degenerate span ':00 CR LF': no bytes at
   all; then the delivery has unit 0 and an empty PDU — no decoder accepts an empty PDU.) *)
Definition ascii_justified (buf : bytes) (d : delivery) : Prop :=
  d_tid d = 0 /\ d_pid d = 0 /\
  exists pre D c1 c2 rest data ck,
    buf = pre ++ COLON :: (D ++ [c1; c2]) ++ CR :: LF :: rest /\
    a2b_hex D = Ok data /\ a2b_hex [c1; c2] = Ok [ck] /\ Z.of_N ck = spec_lrc data /\
    ((exists u, data = u :: d_pdu d /\ Z.of_N u = d_uid d) \/ (data = [] /\ d_pdu d = [] /\ d_uid d = 0)).

Lemma ascii_justified_app_l p l d : ascii_justified l d -> ascii_justified (p ++ l) d.
Proof.
  intros (Ht & Hp & pre & D & c1 & c2 & rest & data & ck & -> & H).
  split; [exact Ht|]. split; [exact Hp|].
  exists (p ++ pre), D, c1, c2, rest, data, ck. split; [now rewrite app_assoc|exact H].
Qed.

Lemma deliver_justified st st1 frame :
  check_clean st = (st1, true) -> a_getframe ascii st1 = Ok frame ->
  ascii_justified (a_buf st1) (a_deliv ascii frame (a_hdr st1)).
Proof.
  intros Hc Hg.
  destruct (ascii_check_gate st st1 Hc) as (pre & D & c1 & c2 & rest & data & _ & (Hbuf & HD & (ck & Hck & Hlv & Hlrc) & Huid) & Hlen).
  rewrite a_getframe_eq, Hlen in Hg. replace (_ >? 0) with true in Hg by lia.
  rewrite pyslice_nonneg in Hg by lia. change (Z.to_nat 3) with 3%nat in Hg.
  replace (_ - 3)%nat with (length D - 2)%nat in Hg by lia.
  rewrite a_deliv_eq. split; [reflexivity|]. split; [reflexivity|]. cbn [d_pdu d_uid].
  exists [], D, c1, c2, rest, data, ck. repeat split; [exact Hbuf|exact HD|exact Hck|lia|].
  rewrite Hbuf in Hg. destruct D as [|a [|b D']]; cbn [app skipn length Nat.sub firstn] in Hg, Huid.
  - (* no characters besides the LRC: its two characters are also read as the unit *)
    right. cbn [a2b_hex] in HD, Hg. injection HD as <-. injection Hg as <-.
    destruct (a2b_hex_cons2 _ _ _ _ Hck) as (u & r' & [= <- <-] & _ & Hu). rewrite Hu in Huid. injection Huid as Hu'.
    repeat split. rewrite <- Hu', Hlv, Hlrc. reflexivity.
  - discriminate HD.
  - left. destruct (a2b_hex_cons2 _ _ _ _ HD) as (u & data' & -> & HD' & Hu). rewrite Hu in Huid. injection Huid as Hu'.
    rewrite Nat.sub_0_r, <- app_assoc, firstn_app_exact, HD' in Hg by reflexivity. injection Hg as <-. now exists u.
Qed.

Theorem ascii_loop_gate dec units single : forall fuel st st' ds o,
  a_loop base lrc ascii dec fuel units single st = (st', ds, o) ->
  Forall (ascii_justified (a_buf st)) ds.
Proof.
  induction fuel as [|fuel IH]; intros st st' ds o H; [injection H as _ <- _; constructor|].
  (* deliveries of the rest of the loop are justified by a suffix of this buffer *)
  assert (Hrest : forall pre st2 ds2, a_buf st = pre ++ a_buf st2 ->
            a_loop base lrc ascii dec fuel units single st2 = (st', ds2, o) -> Forall (ascii_justified (a_buf st)) ds2).
  { intros pre st2 ds2 -> Er. eapply Forall_impl; [|exact (IH _ _ _ _ Er)]. intros d. apply ascii_justified_app_l. }
  destruct (check_suffix st) as (pre & Hpre).
  destruct (a_loop_cases H) as [(-> & _)|[(st1 & Hc & Hadv)|(st1 & _ & Hc & _ & E)]];
    [constructor| |]; rewrite Hc in Hpre; cbn [fst] in Hpre.
  - destruct (advance_suffix st st1 Hc) as (x & pre2 & Hp2). rewrite Hp2, app_assoc in Hpre.
    destruct Hadv as [E|(frame & fc & ds2 & Hg & _ & -> & E)]; [exact (Hrest _ _ _ Hpre E)|].
    constructor; [|exact (Hrest _ _ _ Hpre E)].
    rewrite Hpre, <- app_assoc. apply ascii_justified_app_l. rewrite <- Hp2. exact (deliver_justified st st1 frame Hc Hg).
  - apply (Hrest (pre ++ firstn 1 (a_buf st1)) (a_dropone ascii st1) ds); [|exact E].
    rewrite a_dropone_eq. cbn [a_buf]. rewrite pyfrom_nonneg, <- app_assoc, firstn_skipn by lia. exact Hpre.
Qed.
