(* Async_proofs.v — proofs about theories/AsyncClient.v (C16): invariants by induction over
   arbitrary operation lists, for any [async_code] that has what the unmodified source has
   ([good_code]); Props/C16.v instantiates them with Generated/GenAsync.code. *)
From PM.theories Require Import Base AsyncClient.
From PM.proofs Require Import Base_proofs.
From Coq Require Import Permutation.
Open Scope list_scope.
Open Scope N_scope.

Definition olist (o : option N) : list N := match o with Some x => [x] | None => [] end.

Lemma dset_spec p k d :
  (~ In k (map fst p) /\ dset p k d = (p ++ [(k, d)], None)) \/
  (exists a b d', p = a ++ (k, d') :: b /\ dset p k d = (a ++ (k, d) :: b, Some d')).
Proof.
  induction p as [|[k' d'] r IH]; cbn; [left; auto|].
  destruct (N.eqb_spec k' k) as [->|Hne].
  - right. exists [], r, d'. auto.
  - destruct IH as [[Hn ->]|(a & b & d0 & -> & ->)].
    + left. split; [intros [|]; auto|reflexivity].
    + right. exists ((k', d') :: a), b, d0. auto.
Qed.

Lemma dset_fresh p k d : ~ In k (map fst p) -> dset p k d = (p ++ [(k, d)], None).
Proof.
  intro Hn. destruct (dset_spec p k d) as [[_ E]|(a & b & d' & -> & _)]; [exact E|].
  exfalso. apply Hn. rewrite map_app. apply in_elt.
Qed.

Lemma dset_keys p k d p' o : dset p k d = (p', o) -> NoDup (map fst p) -> NoDup (map fst p').
Proof.
  intro H. destruct (dset_spec p k d) as [[Hn E]|(a & b & d' & -> & E)]; rewrite E in H; injection H as <- _.
  - rewrite map_app. intro Hd. apply NoDup_snoc; assumption.
  - rewrite !map_app. exact (fun H => H).
Qed.

Lemma add_tx_spec v p k d :
  add_tx v p k d = (p ++ [(k, d)], None) \/
  (exists a b d', p = a ++ (k, d') :: b /\ add_tx v p k d = (a ++ (k, d) :: b, Some d')).
Proof. destruct v; cbn; [destruct (dset_spec p k d) as [[_ H]|H]|]; auto. Qed.

Lemma add_tx_perm v p k d p' o : add_tx v p k d = (p', o) ->
  Permutation (olist o ++ map snd p') (d :: map snd p).
Proof.
  intro H. destruct (add_tx_spec v p k d) as [E|(a & b & d' & -> & E)]; rewrite E in H; injection H as <- <-;
    rewrite !map_app; cbn.
  - symmetry. apply Permutation_cons_append.
  - apply perm_trans with (d' :: d :: map snd a ++ map snd b); [constructor; symmetry; apply Permutation_middle|].
    apply perm_trans with (d :: d' :: map snd a ++ map snd b); [apply perm_swap|constructor; apply Permutation_middle].
Qed.

Lemma add_tx_in v p k d p' o x : add_tx v p k d = (p', o) -> In x p' -> x = (k, d) \/ In x p.
Proof.
  intros H Hin. destruct (add_tx_spec v p k d) as [E|(a & b & d' & -> & E)]; rewrite E in H; injection H as <- _;
    apply in_app_or in Hin.
  - destruct Hin as [|[<-|[]]]; auto.
  - destruct Hin as [|[<-|]]; auto; right; apply in_or_app; cbn; auto.
Qed.

Lemma dpop_spec p k :
  match dpop p k with
  | Some (d, p') => exists a b, p = a ++ (k, d) :: b /\ p' = a ++ b
  | None => ~ In k (map fst p)
  end.
Proof.
  induction p as [|[k' d'] r IH]; cbn; [auto|].
  destruct (N.eqb_spec k' k) as [->|Hne].
  - exists [], r. auto.
  - destruct (dpop r k) as [[d p']|].
    + destruct IH as (a & b & -> & ->). exists ((k', d') :: a), b. auto.
    + intros [|]; auto.
Qed.

Lemma dpop_none p k : ~ In k (map fst p) -> dpop p k = None.
Proof.
  intro Hn. pose proof (dpop_spec p k) as S. destruct (dpop p k) as [[d p']|]; [|reflexivity].
  destruct S as (a & b & -> & _). exfalso. apply Hn. rewrite map_app. apply in_elt.
Qed.

Lemma get_tx_split v p k d p' : get_tx v p k = Some (d, p') ->
  exists a b k', p = a ++ (k', d) :: b /\ p' = a ++ b /\ (v = VDict -> k' = k).
Proof.
  destruct v; cbn.
  - intro H. pose proof (dpop_spec p k) as S. rewrite H in S. destruct S as (a & b & -> & ->).
    exists a, b, k. auto.
  - destruct p as [|[k' d'] r]; intros [= <- <-]. exists [], r, k'. repeat split. discriminate.
Qed.

Lemma tid_distinct : forall i d1 d2, d1 <> d2 -> d1 < d2 + 65536 -> d2 < d1 + 65536 ->
  (i + d1) mod 65536 <> (i + d2) mod 65536.
Proof.
  intros i d1 d2 Hne H1 H2 Heq.
  pose proof (N.div_mod (i + d1) 65536 ltac:(discriminate)) as E1.
  pose proof (N.div_mod (i + d2) 65536 ltac:(discriminate)) as E2.
  pose proof (N.mod_lt (i + d1) 65536 ltac:(discriminate)).
  pose proof (N.mod_lt (i + d2) 65536 ltac:(discriminate)).
  rewrite Heq in E1. nia.
Qed.

Lemma arun_app C v a b σ : arun C v (a ++ b) σ = arun C v b (arun C v a σ).
Proof. apply fold_left_app. Qed.

Lemma arun_ind C v (P : astate -> Prop) :
  (forall σ o, P σ -> P (astep C v σ o)) -> forall ops σ, P σ -> P (arun C v ops σ).
Proof. intros Hs ops. induction ops as [|o r IH]; intros σ H; [exact H|]. apply IH, Hs, H. Qed.

Definition passive_op (o : aop) : Prop := match o with Execute | ExecuteE | ExecuteC => False | _ => True end.
Definition plain_op (o : aop) : Prop := match o with ExecuteE | ExecuteC => False | _ => True end.

(* A predicate kept by the elementary changes of the state is kept by every operation, for any
   code record.  Only connectionMade sets the flag to true: take [made := False] for a property
   that holds as long as no connectionMade occurs, [True] otherwise. *)
Section Step.
Variables (C : async_code) (v : variant) (P : astate -> Prop) (made : Prop).
Hypothesis Hmove : forall σ k d p' out, P σ -> get_tx v (a_pending σ) k = Some (d, p') ->
  (forall tid rid, out = OCb tid rid -> k = if ac_handle_by_reply_tid C then tid else 0) ->
  P (move_fired σ p' d out).
Hypothesis Hconn : forall σ b, (b = true -> made) -> P σ -> P (set_conn σ b).
Hypothesis Hskip : forall σ n, P σ -> P (do_skip C σ n).

Section Passive.
Hypothesis Hreact : forall σ d out, P σ -> P (react C v σ d out).

Lemma handle_keeps σ tid rid : P σ -> P (handle C v σ tid rid).
Proof.
  intro H. unfold handle. destruct (get_tx v (a_pending σ) _) as [[d p']|] eqn:E; [|exact H].
  apply Hreact. apply (Hmove _ _ _ _ _ H E). intros ? ? [= -> _]. reflexivity.
Qed.

Lemma seg_loop_keeps u0 frames : forall σ, P σ -> P (seg_loop C v u0 frames σ).
Proof.
  induction frames as [|[[u tid] rid] r IH]; intros σ H; cbn; [exact H|].
  apply IH. destruct (unit_ok C u0 u); auto using handle_keeps.
Qed.

Lemma lost_loop_keeps keys : forall σ, P σ -> P (lost_loop C v keys σ).
Proof.
  induction keys as [|k r IH]; intros σ H; cbn; [exact H|].
  destruct (get_tx v (a_pending σ) k) as [[d p']|] eqn:E; [|exact H].
  apply IH, Hreact. apply (Hmove _ _ _ _ _ H E). discriminate.
Qed.

Lemma clear_keeps (c : bool) σ : P σ -> P (if c then set_conn σ false else σ).
Proof. destruct c; [apply Hconn; discriminate|auto]. Qed.

Lemma astep_passive σ o : (o = Made -> made) -> passive_op o -> P σ -> P (astep C v σ o).
Proof.
  intros Hm Ho H. destruct o; try contradiction; cbn [astep].
  - apply seg_loop_keeps, H.
  - unfold do_lost. apply clear_keeps. destruct (ac_lost_loop C); [apply lost_loop_keeps|]; apply clear_keeps, H.
  - unfold do_made. destruct (ac_made_connected C); auto.
  - apply clear_keeps, H.
  - apply Hskip, H.
Qed.
End Passive.

Hypothesis Hfail : forall σ, P σ -> P (issue_failed C σ).
Hypothesis Hpend : forall σ, P σ -> P (issue_pending C v σ).
Hypothesis Hreg : forall σ d re rc, P σ -> P (register σ d re rc).

Lemma execute_keeps σ : P σ -> P (do_execute C v σ).
Proof. intro H. unfold do_execute. destruct (guard_fails C σ); auto. Qed.

Lemma react_keeps σ d out : P σ -> P (react C v σ d out).
Proof. intro H. unfold react. destruct (match out with OErr _ => _ | OCb _ _ => _ end); auto using execute_keeps. Qed.

Lemma execute_k_keeps σ re rc : P σ -> P (do_execute_k C v σ re rc).
Proof. intro H. unfold do_execute_k. destruct (guard_fails C _); auto using react_keeps. Qed.

Lemma astep_ind σ o : (o = Made -> made) -> P σ -> P (astep C v σ o).
Proof.
  intros Hm H. destruct o; try (apply (astep_passive react_keeps); [exact Hm|exact I|exact H]); cbn [astep];
    auto using execute_keeps, execute_k_keeps.
Qed.
End Step.

Section WithGood.
Variable C : async_code.
Hypothesis HC : good_code C.

Lemma gc_inc : ac_tid_inc C = 1. Proof. exact (proj1 HC). Qed.
Lemma gc_mask : ac_tid_mask C = 65535. Proof. exact (proj1 (proj2 HC)). Qed.
Lemma gc_init : ac_tid_init C < 65536. Proof. exact (proj1 (proj2 (proj2 HC))). Qed.
Lemma gc_guard : ac_build_guard C = true. Proof. exact (proj1 (proj2 (proj2 (proj2 (proj2 (proj2 HC)))))). Qed.
Lemma gc_build_exn : ac_build_exn C = ConnectionExc. Proof. exact (proj1 (proj2 (proj2 (proj2 (proj2 (proj2 (proj2 HC))))))). Qed.
Lemma gc_by_tid : ac_handle_by_reply_tid C = true. Proof. exact (proj1 (proj2 (proj2 (proj2 (proj2 (proj2 (proj2 (proj2 HC)))))))). Qed.

Lemma next_tid_eq : forall x, next_tid C x = (x + 1) mod 65536.
Proof. intro x. unfold next_tid. rewrite gc_inc, gc_mask. change 65535 with (N.ones 16). apply N.land_ones. Qed.

Lemma iter_tid : forall n x, x < 65536 -> N.iter n (next_tid C) x = (x + n) mod 65536.
Proof.
  intros n x Hx. induction n as [|n IH] using N.peano_ind.
  - rewrite N.add_0_r. symmetry. apply N.mod_small, Hx.
  - rewrite N.iter_succ, IH, next_tid_eq, N.add_mod_idemp_l by discriminate. f_equal. lia.
Qed.

Lemma do_skip_eq σ n : a_tid σ < 65536 ->
  do_skip C σ n =
  {| a_tid := (a_tid σ + n) mod 65536; a_alloc := a_alloc σ + n; a_pending := a_pending σ;
     a_conn := a_conn σ; a_fired := a_fired σ; a_sent := a_sent σ; a_lost := a_lost σ;
     a_rerr := a_rerr σ; a_rcb := a_rcb σ |}.
Proof. intro H. unfold do_skip. rewrite iter_tid by exact H. reflexivity. Qed.

(* [i_range] makes the next allocation index fresh and fixes its tid; [i_pend] ties a table key
   to the tid written for its deferred (for the window argument and for [dinv]). *)
Record ainv (σ : astate) : Prop := {
  i_perm : Permutation (a_lost σ ++ pending_dids σ ++ fired_dids σ) (issued σ);
  i_nodup : NoDup (issued σ);
  i_range : forall d t, In (d, t) (a_sent σ) ->
            1 <= d <= a_alloc σ /\ t = (ac_tid_init C + d) mod 65536;
  i_tid : a_tid σ = (ac_tid_init C + a_alloc σ) mod 65536;
  i_pend : forall k d, In (k, d) (a_pending σ) -> In (d, k) (a_sent σ) }.

Lemma ainv_ext : forall σ σ',
  a_tid σ' = a_tid σ -> a_alloc σ' = a_alloc σ -> a_pending σ' = a_pending σ -> a_fired σ' = a_fired σ ->
  a_sent σ' = a_sent σ -> a_lost σ' = a_lost σ -> ainv σ -> ainv σ'.
Proof.
  intros σ σ' H1 H2 H3 H4 H5 H6 [I1 I2 I3 I4 I5].
  constructor; unfold pending_dids, fired_dids, issued in *; rewrite ?H1, ?H2, ?H3, ?H4, ?H5, ?H6; auto.
Qed.

Lemma ainv_init : ainv (init_state C).
Proof.
  constructor; cbn; try (intros ? ? []); try constructor.
  rewrite N.add_0_r. symmetry. apply N.mod_small, gc_init.
Qed.

Lemma next_tid_inv σ : ainv σ -> next_tid C (a_tid σ) = (ac_tid_init C + (a_alloc σ + 1)) mod 65536.
Proof.
  intro I. rewrite next_tid_eq, (i_tid σ I), N.add_mod_idemp_l by discriminate. f_equal. lia.
Qed.

(* what [issue_failed] and [issue_pending] have in common *)
Lemma ainv_issue σ σ' : ainv σ ->
  a_tid σ' = next_tid C (a_tid σ) -> a_alloc σ' = a_alloc σ + 1 ->
  a_sent σ' = a_sent σ ++ [(a_alloc σ + 1, next_tid C (a_tid σ))] ->
  Permutation (a_lost σ' ++ pending_dids σ' ++ fired_dids σ')
              (a_alloc σ + 1 :: a_lost σ ++ pending_dids σ ++ fired_dids σ) ->
  (forall x, In x (a_pending σ') -> x = (next_tid C (a_tid σ), a_alloc σ + 1) \/ In x (a_pending σ)) ->
  ainv σ'.
Proof.
  intros I Ht Ha Hs Hp Hin. rewrite (next_tid_inv σ I) in *.
  constructor; unfold issued; rewrite ?Hs, ?Ht, ?Ha, ?map_app; cbn [map fst]; auto.
  - apply (perm_trans Hp), perm_trans with (a_alloc σ + 1 :: map fst (a_sent σ)); [constructor; apply (i_perm σ I)|].
    apply Permutation_cons_append.
  - apply NoDup_snoc; [apply (i_nodup σ I)|]. intro H. apply in_map_iff in H.
    destruct H as ([d t] & Hd & H). apply (i_range σ I) in H. cbn in Hd. lia.
  - intros d t H. apply in_app_or in H. destruct H as [H|[[= <- <-]|[]]].
    + apply (i_range σ I) in H. split; [lia|apply H].
    + split; [lia|reflexivity].
  - intros k d H. apply in_or_app. destruct (Hin _ H) as [[= -> ->]|H']; [right; left; reflexivity|].
    left. apply (i_pend σ I), H'.
Qed.

Lemma ainv_issue_failed : forall σ, ainv σ -> ainv (issue_failed C σ).
Proof.
  intros σ I. apply (ainv_issue σ); auto. unfold fired_dids. cbn. rewrite map_app, !app_assoc.
  symmetry. apply Permutation_cons_append.
Qed.

Lemma ainv_issue_pending : forall v σ, ainv σ -> ainv (issue_pending C v σ).
Proof.
  intros v σ I. unfold issue_pending. destruct (add_tx v (a_pending σ) _ _) as [p' o] eqn:Ea.
  apply (ainv_issue σ); auto; cbn.
  - replace (match o with Some x => a_lost σ ++ [x] | None => a_lost σ end) with (a_lost σ ++ olist o)
      by (destruct o; cbn; auto using app_nil_r).
    unfold pending_dids. cbn. rewrite <- app_assoc.
    apply perm_trans with (a_lost σ ++ (a_alloc σ + 1 :: map snd (a_pending σ)) ++ fired_dids σ);
      [|symmetry; apply Permutation_middle].
    rewrite (app_assoc (olist o)). apply Permutation_app_head, Permutation_app_tail, (add_tx_perm _ _ _ _ _ _ Ea).
  - intros x. apply (add_tx_in _ _ _ _ _ _ _ Ea).
Qed.

Lemma ainv_move_fired : forall v σ k d p' o, ainv σ -> get_tx v (a_pending σ) k = Some (d, p') ->
  ainv (move_fired σ p' d o).
Proof.
  intros v σ k d p' o I E. destruct (get_tx_split _ _ _ _ _ E) as (a & b & k' & Ep & -> & _).
  destruct I as [I1 I2 I3 I4 I5]. unfold pending_dids, fired_dids in I1. rewrite Ep in I1, I5.
  constructor; cbn; auto.
  - apply perm_trans with (2 := I1). unfold pending_dids, fired_dids. cbn. rewrite !map_app. cbn.
    apply Permutation_app_head. rewrite <- !app_assoc. apply Permutation_app_head.
    rewrite app_assoc. symmetry. apply Permutation_cons_append.
  - intros k0 d0 H. apply I5. apply in_app_or in H. apply in_or_app. cbn. tauto.
Qed.

Lemma ainv_skip σ n : ainv σ -> ainv (do_skip C σ n).
Proof.
  intros [I1 I2 I3 I4 I5]. constructor; cbn; auto.
  - intros d t H. apply I3 in H. split; [lia|apply H].
  - rewrite I4, iter_tid by (apply N.mod_lt; discriminate). rewrite N.add_mod_idemp_l by discriminate.
    f_equal. lia.
Qed.

Lemma ainv_step : forall v σ o, ainv σ -> ainv (astep C v σ o).
Proof.
  intros v σ o. apply (astep_ind C v ainv True); auto.
  - intros; eapply ainv_move_fired; eauto.
  - intros σ0 b _. apply ainv_ext; auto.
  - intros. apply ainv_skip. assumption.
  - apply ainv_issue_failed.
  - apply ainv_issue_pending.
  - intros σ0 d re rc. apply ainv_ext; auto.
Qed.

Lemma ainv_run : forall v ops σ, ainv σ -> ainv (arun C v ops σ).
Proof. intro v. apply arun_ind. intros σ o. apply ainv_step. Qed.

Theorem partition_all_histories : forall v ops,
  let σ := arun C v ops (init_state C) in
  Permutation (a_lost σ ++ pending_dids σ ++ fired_dids σ) (issued σ) /\ NoDup (issued σ).
Proof.
  intros v ops σ. pose proof (ainv_run v ops _ ainv_init) as I. split; [apply (i_perm _ I)|apply (i_nodup _ I)].
Qed.

Theorem once_all_histories : forall v ops, NoDup (fired_dids (arun C v ops (init_state C))).
Proof.
  intros v ops. destruct (partition_all_histories v ops) as [Hp Hn].
  apply (Permutation_NoDup (Permutation_sym Hp)) in Hn.
  apply NoDup_app_r in Hn. apply NoDup_app_r in Hn. exact Hn.
Qed.

Definition noreact (σ : astate) : Prop := a_rerr σ = [] /\ a_rcb σ = [].

Lemma react_noreact : forall v σ d o, noreact σ -> react C v σ d o = σ.
Proof. intros v σ d o [H1 H2]. unfold react. rewrite H1, H2. destruct o; reflexivity. Qed.

Lemma noreact_move : forall σ p d o, noreact σ -> noreact (move_fired σ p d o).
Proof. intros σ p d o H. exact H. Qed.

Lemma noreact_execute : forall v σ, noreact σ -> noreact (do_execute C v σ).
Proof.
  intros v σ H. unfold do_execute, issue_failed, issue_pending. destruct (guard_fails C σ); [exact H|].
  destruct (add_tx v (a_pending σ) _ _); exact H.
Qed.

Lemma execute_safe_no_overwrite : forall v σ, ainv σ -> exec_safe σ = true ->
  a_lost (do_execute C v σ) = a_lost σ.
Proof.
  intros v σ I Hs. unfold do_execute. destruct (guard_fails C σ); [reflexivity|]. unfold issue_pending.
  destruct v; cbn [add_tx]; [|reflexivity]. rewrite dset_fresh; [reflexivity|].
  intro Hin. apply in_map_iff in Hin. destruct Hin as ([k d] & Hk & Hin). cbn in Hk.
  rewrite (next_tid_inv σ I) in Hk. destruct (i_range σ I _ _ (i_pend σ I _ _ Hin)) as [Hr ->].
  unfold exec_safe in Hs. rewrite forallb_forall in Hs. apply Hs, N.ltb_lt in Hin. cbn in Hin.
  revert Hk. apply tid_distinct; lia.
Qed.

Lemma noreact_step v σ o : noreact σ -> plain_op o -> noreact (astep C v σ o).
Proof.
  intros H Ho. destruct o; try contradiction;
    try (apply (astep_passive C v noreact True); auto; intros σ0 d out H0; rewrite react_noreact; auto).
  apply noreact_execute, H.
Qed.

Lemma plain_step v σ o : noreact σ -> plain_op o -> ainv σ ->
  (match o with Execute => exec_safe σ | _ => true end) = true -> a_lost (astep C v σ o) = a_lost σ.
Proof.
  intros H Ho Hi Hs.
  assert (Hp : passive_op o -> a_lost (astep C v σ o) = a_lost σ).
  { intro Hpo. apply (astep_passive C v (fun σ' => noreact σ' /\ a_lost σ' = a_lost σ) True); auto.
    intros σ0 d out [H0 L0]. rewrite react_noreact; auto. }
  destruct o; try contradiction; try exact (Hp I).
  apply execute_safe_no_overwrite; assumption.
Qed.

Lemma plain_cons : forall o r, plain (o :: r) = true -> plain_op o /\ plain r = true.
Proof. intros o r H. cbn in H. apply andb_prop in H. destruct H as [Ho Hr]. split; auto. destruct o; try exact I; discriminate Ho. Qed.

Lemma noreact_run v : forall ops σ, noreact σ -> plain ops = true -> noreact (arun C v ops σ).
Proof.
  induction ops as [|o r IH]; intros σ H Hp; [exact H|].
  destruct (plain_cons _ _ Hp). apply IH; [apply noreact_step|]; assumption.
Qed.

Theorem no_overwrite_in_window : forall v ops σ, ainv σ -> noreact σ -> plain ops = true ->
  safe_run C v ops σ = true -> a_lost (arun C v ops σ) = a_lost σ.
Proof.
  induction ops as [|o r IH]; intros σ I H Hp Hs; [reflexivity|].
  change (arun C v (o :: r) σ) with (arun C v r (astep C v σ o)).
  cbn [safe_run] in Hs. apply andb_prop in Hs. destruct Hs as [Ho Hr].
  destruct (plain_cons _ _ Hp) as [Hpo Hpr].
  rewrite IH; auto using ainv_step, noreact_step, plain_step.
Qed.

Lemma fired_mono_react : forall v σ d o x, In x (a_fired σ) -> In x (a_fired (react C v σ d o)).
Proof.
  intros v σ d o x. apply (react_keeps C v (fun σ' => In x (a_fired σ'))); intros σ0 H.
  - apply in_or_app. auto.
  - unfold issue_pending. destruct (add_tx v _ _ _). exact H.
Qed.

Theorem execute_disconnected : forall v σ, a_conn σ = false ->
  a_pending (do_execute C v σ) = a_pending σ /\ a_conn (do_execute C v σ) = false /\
  a_fired (do_execute C v σ) = a_fired σ ++ [(a_alloc σ + 1, OErr ConnectionExc)].
Proof.
  intros v σ Hc. unfold do_execute, guard_fails. rewrite gc_guard, Hc. cbn. rewrite gc_build_exn. auto.
Qed.

Lemma react_disconnected : forall v σ d o, a_conn σ = false ->
  a_pending (react C v σ d o) = a_pending σ /\ a_conn (react C v σ d o) = false.
Proof.
  intros v σ d o Hc. unfold react.
  destruct (match o with OErr _ => memN d (a_rerr σ) | OCb _ _ => memN d (a_rcb σ) end); auto.
  destruct (execute_disconnected v σ Hc) as (H1 & H2 & _). auto.
Qed.

Lemma lost_loop_drains : forall v p σ, a_conn σ = false -> a_pending σ = p ->
  let σ' := lost_loop C v (map fst p) σ in
  a_pending σ' = [] /\ a_conn σ' = false /\
  (forall x, In x (a_fired σ) -> In x (a_fired σ')) /\
  (forall k d, In (k, d) p -> In (d, OErr (ac_lost_exn C)) (a_fired σ')).
Proof.
  intros v p. induction p as [|[k d] r IH]; intros σ Hc Hp; cbn.
  - repeat split; auto. intros k d [].
  - assert (E : get_tx v (a_pending σ) k = Some (d, r)).
    { rewrite Hp. destruct v; cbn; [rewrite N.eqb_refl|]; reflexivity. }
    rewrite E.
    set (σ1 := react C v (move_fired σ r d (OErr (ac_lost_exn C))) d (OErr (ac_lost_exn C))).
    destruct (react_disconnected v (move_fired σ r d (OErr (ac_lost_exn C))) d (OErr (ac_lost_exn C)) Hc) as [Hp1 Hc1].
    destruct (IH σ1 Hc1 Hp1) as (A & B & M & F).
    assert (Hd : forall x, In x (a_fired σ ++ [(d, OErr (ac_lost_exn C))]) -> In x (a_fired σ1))
      by (intros; apply fired_mono_react; assumption).
    repeat split; auto.
    + intros x Hx. apply M, Hd, in_or_app. auto.
    + intros k0 d0 [[= <- <-]|Hin]; [apply M, Hd, in_elt|eapply F; eauto].
Qed.

Fixpoint no_made (ops : list aop) : bool :=
  match ops with [] => true | Made :: _ => false | _ :: r => no_made r end.

Lemma conn_step : forall v σ o, a_conn σ = false -> match o with Made => False | _ => True end ->
  a_conn (astep C v σ o) = false.
Proof.
  intros v σ o Hc Ho. apply (astep_ind C v (fun σ' => a_conn σ' = false) False); auto.
  - intros σ0 [|] Hb; [destruct Hb|]; reflexivity.
  - intros σ0. unfold issue_pending. destruct (add_tx v _ _ _). exact (fun H => H).
  - intros ->. exact Ho.
Qed.

(* for any code record: nothing but connectionMade sets the flag *)
Lemma disconnected_stays : forall v ops σ, a_conn σ = false -> no_made ops = true ->
  a_conn (arun C v ops σ) = false.
Proof.
  induction ops as [|o r IH]; intros σ Hc Hn; [exact Hc|].
  change (arun C v (o :: r) σ) with (arun C v r (astep C v σ o)).
  apply IH; [apply conn_step; auto; destruct o; auto; discriminate|destruct o; auto; discriminate].
Qed.

Record dinv (σ : astate) : Prop := {
  d_keys : NoDup (map fst (a_pending σ));
  d_cb : forall d tid rid, In (d, OCb tid rid) (a_fired σ) -> In (d, tid) (a_sent σ) }.

Lemma dinv_ext : forall σ σ', a_pending σ' = a_pending σ -> a_fired σ' = a_fired σ -> a_sent σ' = a_sent σ ->
  dinv σ -> dinv σ'.
Proof. intros σ σ' H1 H2 H3 [D1 D2]. constructor; rewrite ?H1, ?H2, ?H3; auto. Qed.

Lemma dinv_issue_failed : forall σ, dinv σ -> dinv (issue_failed C σ).
Proof.
  intros σ [D1 D2]. constructor; cbn; [exact D1|].
  intros d tid rid Hin. apply in_app_or in Hin. apply in_or_app. destruct Hin as [Hin|[[=]|[]]]. eauto.
Qed.

Lemma dinv_issue_pending : forall σ, dinv σ -> dinv (issue_pending C VDict σ).
Proof.
  intros σ [D1 D2]. unfold issue_pending. cbn [add_tx].
  destruct (dset (a_pending σ) _ _) as [p' o] eqn:Ea. constructor; cbn.
  - eapply dset_keys; eauto.
  - intros d tid rid Hin. apply in_or_app. eauto.
Qed.

(* the callback fired for the entry filed under [tid] carries [tid]; by [i_pend] that is the tid
   written for its deferred *)
Lemma dinv_move_fired σ k d p' out : ainv σ -> dinv σ -> get_tx VDict (a_pending σ) k = Some (d, p') ->
  (forall tid rid, out = OCb tid rid -> k = tid) -> dinv (move_fired σ p' d out).
Proof.
  intros I [D1 D2] E Hk. destruct (get_tx_split _ _ _ _ _ E) as (a & b & k' & Ep & -> & Ek).
  rewrite (Ek eq_refl) in Ep. constructor; cbn.
  - rewrite Ep, map_app in D1. rewrite map_app. exact (NoDup_remove_1 _ _ _ D1).
  - intros d0 t0 r0 Hin. apply in_app_or in Hin. destruct Hin as [Hin|[[= <- ->]|[]]]; [eauto|].
    apply (i_pend σ I). rewrite Ep, (Hk _ _ eq_refl). apply in_elt.
Qed.

Lemma dinv_step : forall σ o, ainv σ /\ dinv σ -> ainv (astep C VDict σ o) /\ dinv (astep C VDict σ o).
Proof.
  intros σ o. apply (astep_ind C VDict (fun σ => ainv σ /\ dinv σ) True); auto.
  - intros σ0 k d p' out [I D] E Ho. rewrite gc_by_tid in Ho. split; [eapply ainv_move_fired|eapply dinv_move_fired]; eauto.
  - intros σ0 b _ [I D]. split; [revert I; apply ainv_ext|revert D; apply dinv_ext]; auto.
  - intros σ0 n [I D]. split; [apply ainv_skip, I|revert D; apply dinv_ext; auto].
  - intros σ0 [I D]. split; [apply ainv_issue_failed, I|apply dinv_issue_failed, D].
  - intros σ0 [I D]. split; [apply ainv_issue_pending, I|apply dinv_issue_pending, D].
  - intros σ0 d re rc [I D]. split; [revert I; apply ainv_ext|revert D; apply dinv_ext]; auto.
Qed.

Lemma dinv_init : dinv (init_state C).
Proof. constructor; cbn; [constructor|intros ? ? ? []]. Qed.

Lemma dinv_run : forall ops, dinv (arun C VDict ops (init_state C)).
Proof. intro ops. apply (arun_ind C VDict _ dinv_step). split; [apply ainv_init|apply dinv_init]. Qed.

Lemma segment1 : forall σ u tid rid,
  astep C VDict σ (Segment [(u, tid, rid)]) =
  match dpop (a_pending σ) tid with
  | Some (d, p') => react C VDict (move_fired σ p' d (OCb tid rid)) d (OCb tid rid)
  | None => σ
  end.
Proof.
  intros σ u tid rid. cbn. unfold do_segment. cbn. unfold unit_ok. rewrite N.eqb_refl, orb_true_r.
  unfold handle. rewrite gc_by_tid. reflexivity.
Qed.

Lemma reply_unknown_noop : forall σ u tid rid,
  ~ In tid (map fst (a_pending σ)) -> astep C VDict σ (Segment [(u, tid, rid)]) = σ.
Proof. intros σ u tid rid Hn. rewrite segment1, dpop_none; auto. Qed.

End WithGood.
