(* The extended composition (datastores + control block) over RTU framing. *)
From PM.theories Require Import Base Expr Struct FrBaseA FrSpecA PduCls PduSpec Pdu CorrPdu Store Exec ExecSpec Device ExecOther
                                ExecOtherSpec ExecOtherView Server EndToEnd EndToEndSerial EndToEndExt CorrE2E CorrE2ESerial CorrE2EExt.
From PM.theories Require FrBCommon.
From PM.proofs Require Import Pdu_proofs Exec_proofs Server_proofs ExecOther_proofs EndToEnd_adapt_proofs EndToEnd_spec_proofs
                              EndToEnd_proofs EndToEndSerial_proofs EndToEndRtu_proofs EndToEndExt_proofs.
From PM.proofs Require FrB_rtu_proofs.
Open Scope string_scope.
Open Scope list_scope.
Open Scope Z_scope.

Module R := FrB_rtu_proofs.

(* the station requests have fixed-size rules in the generated server table (4 bytes; 8 for diagnostics) *)
Lemma rtu_station_size m ow : owire_of_msg m = Some ow -> spec_wf m = true -> rtu_sized (spec_pdu m).
Proof.
  intros How Hwf. destruct m; cbn [owire_of_msg] in How; try discriminate How.
  2: destruct data as [|d [|? ?]]; try discriminate How.
  all: clear How; cbn [spec_pdu app].
  all: apply rtu_sized_intro; cbv zeta; [eval_rule; reflexivity|intros u lo hi; eval_rule].
  all: cbn [FrBCommon.frame_size]; unfold FrBCommon.zlen, u16, words; cbn [flat_map app length]; reflexivity.
Qed.

Definition rtu_item_ok_x (sk : skel) (cfg : scfg) (hosted : list Z) (fc : FrBaseA.cfg) (q : e2e_req) : Prop :=
  0 <= q_uid q < 256 /\ wfb (sreq_pdu (q_body q)) = true /\
  ((exists m w, q_body q = QMsg m /\ wreq_of_msg m = Some w /\ spec_wf m = true) \/ station_body (q_body q)) /\
  ((0 <= q_tid q < 65536 /\ 0 <= q_pid q < 65536 /\ served sk cfg hosted (q_uid q)) \/
   spec_accepts KAscii fc (q_uid q) = false).

Lemma rtu_body_x b :
  (exists m w, b = QMsg m /\ wreq_of_msg m = Some w /\ spec_wf m = true) \/ station_body b ->
  pdu_ok b /\ rtu_sized (sreq_pdu b).
Proof.
  intros [(m & w & -> & Hw & Hwf)|Hst].
  - exact (rtu_body m w Hw Hwf).
  - split; [exact (station_pdu_ok b Hst)|]. destruct Hst as (m & ow & -> & How & Hwf & _). exact (rtu_station_size m ow How Hwf).
Qed.

Lemma rtu_item_item_x sk cfg hosted fc q : rtu_item_ok_x sk cfg hosted fc q -> item_ok_x KAscii sk cfg hosted fc q.
Proof.
  intros (Hu & Hb & Hbody & [(Ht & Hp & Hs)|Hrej]).
  - left. split; [|right; exact Hb]. destruct Hbody as [(m & w & Hq & Hw & Hwf)|Hst].
    + left. refine (conj Ht (conj Hp (conj Hu (conj _ Hs)))). exists w. rewrite Hq. now split.
    + right. exact (conj Ht (conj Hp (conj Hu (conj Hst Hs)))).
  - right. split; [|exact Hrej]. destruct (rtu_body_x _ Hbody) as [[Hl _] _]. exact (conj Hu (conj Hb (proj1 Hl))).
Qed.

Lemma rtu_item_vf_x sk cfg hosted q : rtu_item_ok_x sk cfg hosted (unit_cfg sk cfg hosted) q ->
  R.vf (rtu_fcfg (unit_cfg sk cfg hosted)) (rtu_frame (unit_cfg sk cfg hosted) q).
Proof.
  intros (Hu & Hb & Hbody & _). destruct (rtu_body_x _ Hbody) as [[_ Hm] Hsz].
  now apply rtu_vf.
Qed.
