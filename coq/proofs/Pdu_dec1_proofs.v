(* Pdu_dec1_proofs.v — C01 decode: what struct.unpack and the word/byte readers return on the
   specification's encodings, the object [obj_of_msg m] a decoder returns for the PDU of [m], and
   decode() of each class on the specification's bytes (the class is a variable wherever classes
   share a decode body).  The loops over sub-records and the theorems are in Pdu_dec2_proofs.v. *)
From PM.theories Require Import Base Struct PduCls PduSpec Pdu CorrPdu.
From PM.Generated Require Import GenPdu.
From PM.proofs Require Import Base_proofs Pdu_bits_proofs Pdu_proofs.
Open Scope string_scope.
Open Scope list_scope.
Open Scope Z_scope.
Ltac Zify.zify_post_hook ::= Z.to_euclidean_division_equations.

Lemma unpack_on_word b : unpack true [FH; FH] (u16 0 ++ on_word b) = Ok [0; if b then 65280 else 0].
Proof. destruct b; reflexivity. Qed.

Lemma read_words_words l : all_u16 l = true -> read_words (words l) (len l) = Ok l.
Proof.
  induction l as [|v t IH]; intros H; [reflexivity|].
  cbn [all_u16 forallb] in H. apply andb_true_iff in H as [Hv Ht].
  unfold words. cbn [flat_map]. unfold u16 at 1. cbn [app read_words].
  replace (len (v :: t) <=? 0) with false by widths. replace (len (v :: t) - 1) with (len t) by widths.
  fold (words t). rewrite IH by exact Ht. cbn [bind]. now rewrite rd_be16_of_u16.
Qed.

Lemma take_idx_u8s l : all_u8 l = true -> take_idx (length l) (flat_map u8 l) = Ok l.
Proof.
  induction l as [|v t IH]; intros H; [reflexivity|].
  cbn [all_u8 forallb] in H. apply andb_true_iff in H as [Hv Ht].
  cbn [flat_map length]. unfold u8 at 1. cbn [app take_idx]. rewrite IH by exact Ht. cbn [bind].
  unfold is_u8 in Hv. rewrite Z2N.id by lia. reflexivity.
Qed.

Lemma words_length l : length (words l) = (2 * length l)%nat.
Proof. pose proof (words_len l). widths. Qed.

Lemma zl_eqb_refl l : zl_eqb l l = true.
Proof. apply list_eqb_refl, Z.eqb_refl. Qed.

Lemma bytes_eqb_refl l : bytes_eqb l l = true.
Proof. apply list_eqb_refl, N.eqb_refl. Qed.

Lemma sub_read_eqb_refl x : sub_read_eqb x x = true.
Proof. unfold sub_read_eqb. now rewrite !Z.eqb_refl. Qed.

Lemma sub_write_eqb_refl x : sub_write_eqb x x = true.
Proof. unfold sub_write_eqb. now rewrite !Z.eqb_refl, zl_eqb_refl. Qed.

Lemma object_eqb_refl x : object_eqb x x = true.
Proof. unfold object_eqb. now rewrite Z.eqb_refl, bytes_eqb_refl. Qed.

Lemma len_nonneg {A} (l : list A) : 0 <= len l.
Proof. unfold len. lia. Qed.

(* len(range(lo, hi, step)) = n when hi lies in the n-th step above lo *)
Lemma range_len_count lo hi step n : 0 < step -> 0 <= n -> lo + (n - 1) * step < hi <= lo + n * step ->
  range_len lo hi step = n.
Proof. intros Hs Hn H. unfold range_len. destruct (hi <=? lo) eqn:E; nia. Qed.

Lemma bslice_prefix (x rest : bytes) n : length x = n -> bslice (x ++ rest) 0 n = x.
Proof. intros <-. unfold bslice. cbn [skipn]. rewrite Nat.sub_0_r. now apply firstn_app_exact. Qed.

(* the factory's _helper on a PDU whose function code is a numeral, up to decode() of the fresh instance:
   the look-up by function code, the fresh instance and the 0x80 test are evaluated *)
Ltac dec_head :=
  unfold py_decode, msg_is_request, py_decode_server, py_decode_client, spec_pdu;
  cbn [app data0 bind skipn Z.of_N];
  repeat match goal with
  | |- context [lookup_fc ?t ?k] => let x := eval vm_compute in (lookup_fc t k) in change (lookup_fc t k) with x; cbv beta iota
  | |- context [fresh ?c] => is_constructor c; let x := eval vm_compute in (fresh c) in change (fresh c) with x
  | |- context [?k >? client_exc_threshold] =>
      let x := eval vm_compute in (k >? client_exc_threshold) in change (k >? client_exc_threshold) with x; cbv beta iota
  end.

Definition mk_read (s : sub_read) : frec := mk_frec (sr_file s) (sr_record s) [] (sr_length s) 1.
Definition mk_write (s : sub_write) : frec :=
  mk_frec (sw_file s) (sw_record s) (words (sw_data s)) (len (sw_data s)) (len (words (sw_data s)) + 1).
Definition mone_item (o : Z * bytes) : Z * mval := (fst o, MOne (snd o)).

(* the instance the matching factory returns for the specification's PDU of [m] (for the kinds of
   [conforming_decode]; for the others, the instance that would stand for [m]) *)
Definition obj_of_msg (m : msg) : obj :=
  let c := spec_class m in
  match m with
  | MReadCoilsReq a q | MReadDiscreteReq a q | MReadHoldingReq a q | MReadInputReq a q
  | MWriteCoilsRsp a q | MWriteRegsRsp a q => OFixed c [("address", a); ("count", q)]
  | MWriteRegRsp a v => OFixed c [("address", a); ("value", v)]
  | MMaskWriteReq a x y | MMaskWriteRsp a x y => OFixed c [("address", a); ("and_mask", x); ("or_mask", y)]
  | MReadFifoReq a => OFixed c [("address", a)]
  | MReadDevIdReq rc oid => OFixed c [("sub_function_code", 14); ("read_code", rc); ("object_id", oid)]
  | MReadExcStatusReq | MCommEventCounterReq | MCommEventLogReq | MReportSlaveIdReq => OEmpty c
  | MReadCoilsRsp cs | MReadDiscreteRsp cs =>
      OBitsRsp c (spec_unpack_bits (spec_pack_bits cs)) (Some (bit_byte_count (len cs)))
  | MReadHoldingRsp rs | MReadInputRsp rs | MReadWriteRegsRsp rs => ORegsRsp c rs
  | MWriteCoilReq a v | MWriteCoilRsp a v => OCoil c a v
  | MWriteRegReq a v => OWriteRegReq a v
  | MWriteCoilsReq a cs => OWriteCoilsReq a cs (bit_byte_count (len cs))
  | MWriteRegsReq a rs => OWriteRegsReq a rs (len rs) (2 * len rs)
  | MReadWriteRegsReq ra rq wa ws => ORWReq ra rq wa ws (len ws) (2 * len ws)
  | MDiagReq s d => ODiag c s (match d with [w] => DInt w | _ => DList d end)
  | MDiagRsp s d => ODiag c s (DTuple d)
  | MReadExcStatusRsp s => OExcStatusRsp s
  | MCommEventCounterRsp busy n => OEvCounterRsp (negb busy) n
  | MCommEventLogRsp busy ec mc evs => OEvLogRsp (negb busy) mc ec evs
  | MReportSlaveIdRsp id run => OSlaveIdRsp id run (Some (len id + 1))
  | MReadFileReq ss => OFileRecs c (map mk_read ss)
  | MReadFileRsp ds => OFileRecs c (map (fun d => mk_frec 0 0 (words d) (len d) (1 + 2 * len d)) ds)
  | MWriteFileReq ss | MWriteFileRsp ss => OFileRecs c (map mk_write ss)
  | MReadFifoRsp rs => OFifoRsp rs
  | MReadDevIdRsp rc cf more next objs => OMeiRsp 14 rc cf more next (len objs) (map mone_item objs) None
  | MException fc code => OExc fc (fc + 128) code
  end.

(* [m] with a bit list as it comes off the wire: padded with zero bits to a byte boundary *)
Definition padded (m : msg) : msg :=
  match m with
  | MReadCoilsRsp cs => MReadCoilsRsp (spec_unpack_bits (spec_pack_bits cs))
  | MReadDiscreteRsp cs => MReadDiscreteRsp (spec_unpack_bits (spec_pack_bits cs))
  | _ => m
  end.

Lemma obj_class m : class_of (obj_of_msg m) = spec_class m.
Proof. destruct m; reflexivity. Qed.

Lemma dec_fixed_fields c a0 fmt names vs data :
  assoc_cls c dec_layouts = Some (true, fmt, names) -> data = fields fmt vs ->
  forallb is_HB fmt = true -> all_fit fmt vs = true -> decode_into (OFixed c a0) data = Ok (OFixed c (combine names vs)).
Proof.
  intros Hl Hd Hf Hv. cbn [decode_into]. unfold dec_fixed. rewrite Hl. fold (upk fmt data).
  now rewrite (upk_fields fmt vs).
Qed.

Lemma dec_bits c b0 n0 n bs : is_u8 n = true ->
  decode_into (OBitsRsp c b0 n0) (u8 n ++ bs) = Ok (OBitsRsp c (spec_unpack_bits bs) (Some n)).
Proof. intros H. cbn. rewrite py_unpack_spec, Z2N.id by widths. reflexivity. Qed.

Lemma dec_regs c rs : all_u16 rs = true ->
  decode_into (ORegsRsp c []) (u8 (2 * len rs) ++ words rs) = Ok (ORegsRsp c rs).
Proof.
  intros Hr. pose proof (len_nonneg rs). cbn [decode_into u8 app data0 bind skipn]. rewrite Z2N.id by lia.
  rewrite !(range_len_count _ _ 2 (len rs)), read_words_words by (assumption || lia).
  now destruct (cls_eqb c ReadWriteMultipleRegistersResponse).
Qed.

Lemma dec_coil c a0 v0 a v : is_u16 a = true ->
  decode_into (OCoil c a0 v0) (u16 a ++ on_word v) = Ok (OCoil c a v).
Proof.
  intros H. cbn [decode_into]. rewrite <- coil_word_spec.
  pose proof (coil_word_u16 v). rewrite (upk_fields [FH; FH] [a; coil_word v]) by (reflexivity || widths).
  cbn [bind]. now destruct v.
Qed.

Lemma u8_len_u16 {A} (l : list A) : is_u8 (2 * len l) = true -> is_u16 (len l) = true.
Proof. widths. Qed.

Lemma odd_words l : Nat.odd (length (words l)) = false.
Proof. rewrite words_length, Nat.odd_mul. reflexivity. Qed.

Lemma dec_diag_rsp c s0 m0 s d : is_request c = false -> all_u16 (s :: d) = true ->
  decode_into (ODiag c s0 m0) (u16 s ++ words d) = Ok (ODiag c s (DTuple d)).
Proof.
  intros Hc H. cbn [decode_into]. rewrite Hc. change (u16 s ++ words d) with (words (s :: d)).
  rewrite odd_words. replace (zlen (words (s :: d)) / 2) with (len (s :: d)) by (unfold zlen, len; rewrite words_length; lia).
  now rewrite read_words_words.
Qed.

Lemma unpack_busy b : unpack true [FH] (busy_word b) = Ok [if b then 65535 else 0].
Proof. destruct b; reflexivity. Qed.

Lemma dec_evlog s0 m0 e0 o b ec mc evs :
  is_u16 ec = true -> is_u16 mc = true -> all_u8 evs = true ->
  decode_into (OEvLogRsp s0 m0 e0 o) (u8 (6 + len evs) ++ busy_word b ++ u16 ec ++ u16 mc ++ flat_map u8 evs) =
  Ok (OEvLogRsp (negb b) mc ec evs).
Proof.
  intros He Hm Hv. pose proof (len_nonneg evs). cbn [decode_into u8 app data0 bind]. rewrite Z2N.id by lia.
  replace (range_len 7 (6 + len evs + 1) 1) with (len evs) by (symmetry; apply range_len_count; lia).
  assert (S : forall x r, bslice (x :: busy_word b ++ u16 ec ++ u16 mc ++ r) 1 3 = busy_word b /\
                          bslice (x :: busy_word b ++ u16 ec ++ u16 mc ++ r) 3 5 = u16 ec /\
                          bslice (x :: busy_word b ++ u16 ec ++ u16 mc ++ r) 5 7 = u16 mc /\
                          skipn 7 (x :: busy_word b ++ u16 ec ++ u16 mc ++ r) = r) by (destruct b; repeat split).
  destruct (S (Z.to_N (6 + len evs)) (flat_map u8 evs)) as (-> & -> & -> & ->). unfold upk.
  rewrite unpack_busy, !(upk_fields [FH] [_]) by (reflexivity || widths). cbn [bind].
  unfold len at 1. rewrite Nat2Z.id, take_idx_u8s by assumption. now destruct b.
Qed.
