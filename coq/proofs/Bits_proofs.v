(* Bits_proofs.v — the interpreter of the generated bit-packing constants, run on the constants
   gen/gen_bits.py reads from utilities.py, is the literal model of Pdu.v. *)
From PM.theories Require Import Base Bits Pdu.
From PM.Generated Require Import GenBits.
Open Scope N_scope.

Lemma bits_code_is_spec : GenBits.code = spec_bits_code.
Proof. reflexivity. Qed.

Lemma pack_loop_g_literal : forall bits ret i packed,
  pack_loop_g spec_bits_code bits ret i packed = py_pack_loop bits ret i packed.
Proof.
  induction bits as [|b t IH]; intros ret i packed; [reflexivity|].
  cbn [pack_loop_g py_pack_loop pb_add pb_group pb_shift spec_bits_code].
  destruct (i + 1 =? 8); apply IH.
Qed.

Lemma pack_g_literal : forall bits, pack_g spec_bits_code bits = py_pack_bitstring bits.
Proof.
  intros bits. unfold pack_g, py_pack_bitstring. rewrite pack_loop_g_literal.
  destruct (py_pack_loop bits [] 0 0) as [[ret i] packed]. reflexivity.
Qed.

Lemma byte_bits_g_literal : forall n v, byte_bits_g spec_bits_code n v = byte_bits_loop n v.
Proof. induction n as [|n IH]; intros v; [reflexivity|]. cbn. rewrite IH. reflexivity. Qed.

Lemma unpack_g_literal : forall s, unpack_g spec_bits_code s = py_unpack_bitstring s.
Proof. intros s. apply flat_map_ext, byte_bits_g_literal. Qed.
