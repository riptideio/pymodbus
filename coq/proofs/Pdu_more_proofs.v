(* Pdu_more_proofs.v — C01: dispatch over the generated factory tables, decoding of exception
   responses, the predicate of the decode refutations. *)
From PM.theories Require Import Base Struct PduCls PduSpec Pdu CorrPdu.
From PM.Generated Require Import GenPdu.
From PM.proofs Require Import Base_proofs Struct_proofs Pdu_bits_proofs Pdu_proofs.
From Coq Require Import ZifyBool.
Open Scope string_scope.
Open Scope list_scope.
Open Scope Z_scope.
Ltac Zify.zify_post_hook ::= Z.to_euclidean_division_equations.

(* The specification side of the dispatch theorems is a chain of tests on the code: splitting on them in turn leaves, for each
   listed code, a closed lookup in the table, and at the end a code that no class of the table has. *)

Lemma lookup_fc_unfold table fc :
  lookup_fc table fc = fold_left (fun acc f => if option_eqb Z.eqb (fc_of f) (Some fc) then Some f else acc) table None.
Proof. reflexivity. Qed.

Lemma fold_last_none {A} (p : A -> bool) l :
  (forall x, In x l -> p x = false) -> fold_left (fun acc f => if p f then Some f else acc) l None = None.
Proof.
  induction l as [|x t IH]; intros H; [reflexivity|]. cbn [fold_left].
  rewrite (H x (or_introl eq_refl)). apply IH. intros y Hy. apply H. now right.
Qed.

Lemma lookup_fc_none table fc : ~ In (Some fc) (map fc_of table) -> lookup_fc table fc = None.
Proof.
  intros H. apply fold_last_none. intros c Hc.
  destruct (option_eqb _ _ _) eqn:E; [|reflexivity]. destruct H. rewrite <- (option_eqb_Z _ _ E). now apply in_map.
Qed.

Lemma lookup_sub_none table fc sub :
  ~ In (Some fc, Some sub) (map (fun c => (fc_of c, sub_of_cls c)) table) -> lookup_sub table fc sub = None.
Proof.
  intros H. apply fold_last_none. intros c Hc.
  destruct (_ && _) eqn:E; [|reflexivity]. destruct H. apply andb_true_iff in E as [E1 E2].
  rewrite <- (option_eqb_Z _ _ E1), <- (option_eqb_Z _ _ E2). now apply (in_map (fun c => (fc_of c, sub_of_cls c))).
Qed.

(* the looked-up class [L] is kept out of the goal, so that each split abstracts only the chain of tests *)
Ltac split_codes x L :=
  repeat match goal with
         | |- context [x =? ?k] => destruct (Z.eqb_spec x k) as [->|?]; [subst L; vm_compute; reflexivity|]
         end.

(* the code is none of the listed ones (hypotheses [code <> k]) and every entry carries a listed one *)
Ltac no_entry := vm_compute; intros H; repeat destruct H as [H|H]; congruence.

Theorem dispatch_server fc : lookup_fc server_function_table fc = spec_request_class fc.
Proof.
  remember (lookup_fc server_function_table fc) as L. unfold spec_request_class. split_codes fc L.
  subst L. apply lookup_fc_none. no_entry.
Qed.

Theorem dispatch_client fc : lookup_fc client_function_table fc = spec_response_class fc.
Proof.
  remember (lookup_fc client_function_table fc) as L. unfold spec_response_class. split_codes fc L.
  subst L. apply lookup_fc_none. no_entry.
Qed.

Theorem subdispatch_server fc sub : lookup_sub server_sub_function_table fc sub = spec_request_subclass fc sub.
Proof.
  remember (lookup_sub server_sub_function_table fc sub) as L. unfold spec_request_subclass.
  destruct (Z.eqb_spec fc 8) as [->|?]; [|destruct (Z.eqb_spec fc 43) as [->|?]];
    split_codes sub L; subst L; apply lookup_sub_none; no_entry.
Qed.

Theorem subdispatch_client fc sub : lookup_sub client_sub_function_table fc sub = spec_response_subclass fc sub.
Proof.
  remember (lookup_sub client_sub_function_table fc sub) as L. unfold spec_response_subclass.
  destruct (Z.eqb_spec fc 8) as [->|?]; [|destruct (Z.eqb_spec fc 43) as [->|?]];
    split_codes sub L; subst L; apply lookup_sub_none; no_entry.
Qed.

Lemma lor_offset fc : 0 <= fc < 128 -> Z.lor fc 128 = fc + 128.
Proof.
  intros H. assert (L : Z.land fc 128 = 0).
  { rewrite <- (Z.mod_small fc (2 ^ 7)), <- Z.land_ones, <- Z.land_assoc by lia. apply Z.land_0_r. }
  rewrite <- Z.lxor_lor by exact L. symmetry. now apply Z.add_nocarry_lxor.
Qed.

Lemma exc_bits fc : 128 < fc < 256 -> Z.land fc 127 = fc - 128 /\ Z.lor (fc - 128) 128 = fc.
Proof.
  intros H. split; [|rewrite lor_offset; lia].
  change 127 with (Z.ones 7). rewrite Z.land_ones by lia. change (2 ^ 7) with 128. lia.
Qed.

Theorem exception_decode fc ec : 128 < fc < 256 ->
  py_decode_client [Z.to_N fc; ec] = Ok (OExc (fc - 128) fc (Z.of_N ec)).
Proof.
  intros Hf. unfold py_decode_client. cbn [data0 bind]. rewrite Z2N.id by lia.
  rewrite dispatch_client. unfold spec_response_class.
  repeat match goal with |- context [fc =? ?k] => replace (fc =? k) with false by lia end.
  change client_exc_threshold with 128. replace (fc >? 128) with true by lia.
  change client_exc_mask with 127. change exception_offset with 128.
  destruct (exc_bits fc Hf) as [-> ->]. cbn [skipn decode_into data0 bind]. reflexivity.
Qed.

Definition decoded_matches (m : msg) (r : res obj) : bool :=
  match r with
  | Ok o => cls_eqb (class_of o) (spec_class m) && match abs o with Some d => msg_matches m d | None => false end
  | Raise _ => false
  end.
