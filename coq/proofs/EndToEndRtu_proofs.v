(* The serial server path with RTU framing.  The RTU half of the framer development speaks another vocabulary
   (FrBCommon.dres / delivered / fexit / fcfg, frames as (accepted?, (unit, PDU)), feeding as rtu_feed_dels); the
   lemmas here carry C06_rtu and C03_build_rtu over to FrBaseA.feed and [pk_ok].  Even a frame that is only to be
   skipped needs a prefix-stable, correct size rule in the GENERATED server decoder table ([rtu_sized]).
   FrSpecA is used at [KAscii], which stands for "serial: a unit id, no transaction / protocol id".
   R = FrB_rtu_proofs: [R.vf] the valid frame of C06_rtu, [R.stream] the bytes of a frame list, [R.msgs] its
   reference deliveries. *)
From PM.theories Require Import Base Expr Struct FrBaseA FrSpecA PduCls PduSpec Pdu CorrPdu Store Exec ExecSpec Server EndToEnd
                                EndToEndSerial CorrE2E CorrE2ESerial.
From PM.theories Require FrBCommon FrRtu FrSpecB.
From PM.Generated Require GenFramerB.
From PM.proofs Require Import Base_proofs Pdu_proofs Exec_proofs Server_proofs EndToEnd_adapt_proofs EndToEnd_spec_proofs EndToEnd_proofs
                              EndToEndSerial_proofs.
From PM.proofs Require FrB_rtu_proofs Pdu_dec1_proofs.
From PM.Props Require C01 C03_rtubin C06_rtubin.
Open Scope string_scope.
Open Scope list_scope.
Open Scope Z_scope.

Module R := FrB_rtu_proofs.

Lemma rtu_validate c uid : FrBCommon.validate_unit (rtu_fcfg c) (Some uid) = Ok (spec_accepts KAscii c uid).
Proof.
  unfold FrBCommon.validate_unit, rtu_fcfg, spec_accepts, FrSpecA.spec_single. cbn [FrBCommon.cf_single FrBCommon.cf_units].
  destruct (c_single c) as [[|]|]; [reflexivity| |]; cbn [orb]; unfold FrBaseA.zmem;
    destruct (existsb (Z.eqb 0) (c_units c)); try reflexivity; destruct (existsb (Z.eqb 255) (c_units c)); reflexivity.
Qed.

Ltac eval_rule :=
  match goal with |- context [FrBCommon.lookup_rule ?d ?k] =>
    let r := eval vm_compute in (FrBCommon.lookup_rule d k) in change (FrBCommon.lookup_rule d k) with r end.

Lemma zb_to_N v : 0 <= v -> FrBCommon.zb (Z.to_N v) = v.
Proof. intros H. unfold FrBCommon.zb. lia. Qed.

Definition rtu_sized (pdu : bytes) : Prop := forall u, wfb (u :: pdu) = true ->
  exists fc data, pdu = fc :: data /\
    R.simple_rule (FrBCommon.lookup_rule GenFramerB.server_decoder (FrBCommon.zb fc)) = true /\
    FrBCommon.frame_size (FrBCommon.lookup_rule GenFramerB.server_decoder (FrBCommon.zb fc)) (FrSpecB.spec_adu_rtu u pdu)
      = Ok (FrBCommon.zlen (FrSpecB.spec_adu_rtu u pdu)).

(* the rule is looked up once and checked on the frame with any CRC bytes *)
Lemma rtu_sized_intro fc data :
  let rule := FrBCommon.lookup_rule GenFramerB.server_decoder (FrBCommon.zb fc) in
  R.simple_rule rule = true ->
  (forall u lo hi, FrBCommon.frame_size rule ((u :: fc :: data) ++ [lo; hi]) = Ok (FrBCommon.zlen ((u :: fc :: data) ++ [lo; hi]))) ->
  rtu_sized (fc :: data).
Proof.
  intros rule Hs Hsz u Hb. destruct (R.spec_adu_rtu_shape u (fc :: data) Hb) as (lo & hi & Esh & _). rewrite Esh. eauto.
Qed.

Lemma rtu_request_size m w : wreq_of_msg m = Some w -> spec_wf m = true -> rtu_sized (spec_pdu m).
Proof.
  intros Hw Hwf.
  destruct m; unfold wreq_of_msg in Hw; try discriminate Hw; clear Hw; cbn [spec_pdu app].
  (* ten goals, in the constructor order of [msg]: FC 1-6, 15, 16, 22, 23; the rule is looked up in each *)
  all: apply rtu_sized_intro; cbv zeta; [eval_rule; reflexivity|intros u lo hi; eval_rule].
  (* FC 1-6, 22: a fixed size *)
  1-6,9: cbn [FrBCommon.frame_size]; unfold FrBCommon.zlen, u16; try destruct on; cbn [on_word app length]; reflexivity.
  (* FC 15, 16, 23: the rule is a byte count; C03_rtu_size_oracle asks for its position (6, 6, 10) and for the byte
     there, and that this byte is the number of bytes that follow it *)
  all: cbn [spec_wf] in Hwf; split_andb Hwf; unfold is_u8 in *.
  all: apply C03_rtubin.C03_rtu_size_oracle; right; eexists; eexists.
  all: (split; [reflexivity|]); (split; [discriminate|]); (split; [reflexivity|]).
  all: rewrite zb_to_N by lia; unfold FrBCommon.zlen, u16, u8; cbn [app length]; rewrite app_length.
  - (* FC 15 *) destruct (C01.C01_bitpack_shape coils) as (_ & Hl & _). cbn [length]. unfold len in *. lia.
  - (* FC 16 *) rewrite Pdu_dec1_proofs.words_length. cbn [length]. unfold len in *. lia.
  - (* FC 23 *) rewrite Pdu_dec1_proofs.words_length. cbn [length]. unfold len in *. lia.
Qed.

Lemma rtu_body m w : wreq_of_msg m = Some w -> spec_wf m = true -> pdu_ok (QMsg m) /\ rtu_sized (spec_pdu m).
Proof. intros Hw Hwf. split; [exact (body_pdu_ok (QMsg m) w (conj Hw Hwf))|exact (rtu_request_size m w Hw Hwf)]. Qed.

(* a request FC 1-6/15/16/22/23 to a served unit, or a request frame of the same ten kinds that the
   unit filter rejects (the receiver must know the size of a frame even to skip it) *)
Definition rtu_item_ok (sk : skel) (cfg : scfg) (hosted : list Z) (fc : FrBaseA.cfg) (q : e2e_req) : Prop :=
  0 <= q_uid q < 256 /\ wfb (sreq_pdu (q_body q)) = true /\
  (exists m w, q_body q = QMsg m /\ wreq_of_msg m = Some w /\ spec_wf m = true) /\
  ((0 <= q_tid q < 65536 /\ 0 <= q_pid q < 65536 /\ served sk cfg hosted (q_uid q)) \/
   spec_accepts KAscii fc (q_uid q) = false).

Lemma rtu_item_item sk cfg hosted fc q : rtu_item_ok sk cfg hosted fc q -> item_ok KAscii sk cfg hosted fc q.
Proof.
  intros (Hu & Hb & (m & w & Hbody & Hw & Hwf) & [(Ht & Hp & Hs)|Hrej]).
  - left. split; [|exact Hb]. refine (conj Ht (conj Hp (conj Hu (conj _ Hs)))). exists w. rewrite Hbody. now split.
  - right. split; [|exact Hrej]. refine (conj Hu (conj Hb _)). unfold frame_of. cbn [f_pdu]. rewrite Hbody.
    apply (request_pdu_length m w Hw Hwf).
Qed.

Definition rtu_frame (fc : FrBaseA.cfg) (q : e2e_req) : R.frame :=
  (spec_accepts KAscii fc (q_uid q), (Z.to_N (q_uid q), sreq_pdu (q_body q))).

Lemma rtu_vf fc q : 0 <= q_uid q < 256 -> wfb (sreq_pdu (q_body q)) = true ->
  is_msg (e2e_dec (sreq_pdu (q_body q))) = true -> rtu_sized (sreq_pdu (q_body q)) ->
  R.vf (rtu_fcfg fc) (rtu_frame fc q).
Proof.
  intros Hu Hb Hm Hsz.
  assert (Hub : wfb (Z.to_N (q_uid q) :: sreq_pdu (q_body q)) = true).
  { apply wfb_cons. split; [lia|exact Hb]. }
  unfold R.vf, rtu_frame. cbn [fst snd]. constructor.
  - exact Hub.
  - intros _. unfold rtu_fcfg, rtu_dec. cbn [FrBCommon.cf_dec]. destruct (e2e_dec _); [reflexivity|discriminate Hm|discriminate Hm].
  - rewrite zb_to_N by lia. apply rtu_validate.
  - exact (Hsz _ Hub).
Qed.

Lemma rtu_item_vf sk cfg hosted q : rtu_item_ok sk cfg hosted (unit_cfg sk cfg hosted) q ->
  R.vf (rtu_fcfg (unit_cfg sk cfg hosted)) (rtu_frame (unit_cfg sk cfg hosted) q).
Proof.
  intros (Hu & Hb & (m & w & Hbody & Hw & Hwf) & _). destruct (rtu_body m w Hw Hwf) as [[_ Hm] Hsz].
  apply rtu_vf; try assumption; now rewrite Hbody.
Qed.

Lemma rtu_stream fc qs : R.stream (map (rtu_frame fc) qs) = concat (map req_adu_rtu qs).
Proof. induction qs as [|q t IH]; [reflexivity|]. unfold R.stream in *. cbn [map flat_map concat]. now rewrite IH. Qed.

Lemma rtu_msgs fc qs : Forall (fun q => 0 <= q_uid q) qs ->
  map rtu_delivery (R.msgs (map (rtu_frame fc) qs)) = ref_deliveries KAscii fc (map frame_of qs).
Proof.
  induction 1 as [|q t Hq Ht IH]; [reflexivity|]. unfold R.msgs, ref_deliveries in *. cbn [map flat_map filter].
  change (f_uid (frame_of q)) with (q_uid q). unfold R.msg_of at 1, rtu_frame at 1. cbn [fst snd].
  destruct (spec_accepts KAscii fc (q_uid q)); [|exact IH].
  cbn [app map]. rewrite IH. unfold rtu_delivery at 1, spec_delivery at 1, frame_of at 1, rtu_frame. cbn [fst snd f_pdu f_uid].
  rewrite zb_to_N by exact Hq. reflexivity.
Qed.

Lemma feed_of_dels c : forall chunks st ds,
  R.rtu_feed_dels (rtu_fcfg c) st chunks = (ds, map (fun _ => FrBCommon.FOk) chunks) ->
  exists st', feed (rtu_recv_h c) st chunks = (st', map rtu_delivery ds, true).
Proof.
  induction chunks as [|x cs IH]; intros st ds H.
  - cbn in H. injection H as <-. exists st. reflexivity.
  - cbn [R.rtu_feed_dels map] in H. cbn [feed]. unfold rtu_recv_h at 1.
    destruct (FrRtu.rtu_recv (rtu_fcfg c) st x) as [[s1 d1] e].
    destruct (R.rtu_feed_dels (rtu_fcfg c) s1 cs) as [d2 xs] eqn:E.
    injection H as <- -> ->. destruct (IH s1 d2 E) as [st' Hf]. exists st'. rewrite Hf, map_app. reflexivity.
Qed.

Lemma feed_rtu fc qs chunks : Forall (fun q => 0 <= q_uid q /\ R.vf (rtu_fcfg fc) (rtu_frame fc q)) qs ->
  concat chunks = concat (map req_adu_rtu qs) ->
  exists st', feed (rtu_recv_h fc) FrRtu.rtu_init (filter nonempty chunks)
              = (st', ref_deliveries KAscii fc (map frame_of qs), true).
Proof.
  intros Hqs Hcat. rewrite <- rtu_msgs by (eapply Forall_impl; [|exact Hqs]; now intros q [H _]).
  apply feed_of_dels, C06_rtubin.C06_rtu; [reflexivity|now right| |now rewrite concat_filter_nonempty, rtu_stream].
  apply Forall_map. eapply Forall_impl; [|exact Hqs]. now intros q [_ H].
Qed.

Lemma rtu_pk_ok : pk_ok packet_rtu rtu_adu (fun q => spec_delivery KAscii (frame_of q)).
Proof.
  apply (serial_pk_ok FrRtu.rtu_build (fun u p => FrSpecB.spec_adu_rtu (Z.to_N u) p)).
  intros uid fc data Hu Hf Hw. rewrite <- (Z2N.id uid) at 1 by lia. rewrite <- (Z2N.id fc) at 1 by lia.
  apply C03_rtubin.C03_build_rtu; [lia|lia|exact Hw].
Qed.
