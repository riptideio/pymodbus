(* Lock_proofs.v — proofs about the interleaving model of theories/Lock.v (C15). *)
From PM.theories Require Import Base Lock.
Open Scope list_scope.

Lemma length_upd : forall A (l : list A) n x, length (upd l n x) = length l.
Proof. induction l as [|y l IH]; intros [|n] x; cbn; auto. Qed.

Lemma nth_upd_eq : forall {A} {l : list A} {n} x {y},
  nth_error l n = Some y -> nth_error (upd l n x) n = Some x.
Proof.
  intros A. induction l as [|z l IH]; intros [|n] x y H; cbn in *; try discriminate; auto.
  eapply IH; eauto.
Qed.

Lemma nth_upd_ne : forall A (l : list A) n m x, n <> m -> nth_error (upd l n x) m = nth_error l m.
Proof.
  induction l as [|z l IH]; intros [|n] [|m] x H; cbn; auto; try congruence.
Qed.

Lemma nth_upd_some : forall A (l : list A) n m x, nth_error l m <> None -> nth_error (upd l n x) m <> None.
Proof. intros A l n m x. rewrite !nth_error_Some, length_upd. auto. Qed.

Lemma upd_forall : forall {A} {R : nat -> A -> Prop} {l : list A} {n x y},
  nth_error l n = Some y -> R n x -> (forall m z, m <> n -> nth_error l m = Some z -> R m z) ->
  forall m z, nth_error (upd l n x) m = Some z -> R m z.
Proof.
  intros A R l n x y Hn Hx Hl m z H. destruct (Nat.eq_dec m n) as [->|Hne].
  - rewrite (nth_upd_eq x Hn) in H. inversion H; subst. exact Hx.
  - rewrite nth_upd_ne in H by congruence. auto.
Qed.

(* the list ends at depth > 0: not closed *)
Lemma closes_pos_nonempty : forall d, closes (S d) [] = false.
Proof. reflexivity. Qed.

Definition is_lock_op (o : lop) : bool := lop_eqb o Acquire || lop_eqb o Release.

Lemma closes_other : forall d o r, is_lock_op o = false ->
  closes d (o :: r) = Nat.leb 1 d && closes d r.
Proof. intros d o r H. destruct o; cbn in H; try discriminate; reflexivity. Qed.

Lemma exec_other : forall re t k s l o, is_lock_op o = false ->
  exists s' l', exec_op re t k s l o = Some (s', l') /\ sh_lock s' = sh_lock s /\
                sh_log s' = sh_log s ++ block t k [o].
Proof.
  intros re t k s l o Ho. destruct o; cbn in Ho; try discriminate; cbn;
    try (eexists; eexists; rewrite ?app_nil_r; repeat split; reflexivity).
  destruct (tpop (sh_table s) (lo_tid l)) as [[f tb]|]; [|destruct (sh_table s) as [|p q]; [|destruct (tpop (p :: q) 0) as [[f tb]|]]];
    eexists; eexists; rewrite app_nil_r; repeat split.
Qed.

Lemma wb_step_shape : forall o r, well_bracketed (o :: r) = true ->
  (o = ConnectCheck /\ well_bracketed r = true) \/ (o = Acquire /\ closes 1 r = true).
Proof.
  intros o r H. destruct o; cbn in H; try discriminate; auto.
Qed.

Definition progs_wb (prog : list (list lop)) : Prop := Forall (fun sk => well_bracketed sk = true) prog.

Definition thread_ok (lk : option (nat * nat)) (t : nat) (th : thread) : Prop :=
  match lk with
  | Some (o, d) =>
      if Nat.eqb o t
      then exists h rest, th_prog th = h :: rest /\ closes d h = true /\ progs_wb rest
      else progs_wb (th_prog th) /\ in_flight th = false
  | None => progs_wb (th_prog th) /\ in_flight th = false
  end.

Definition owns (lk : option (nat * nat)) (t : nat) : bool :=
  match lk with Some (o, _) => Nat.eqb o t | None => false end.

(* free, or held by t *)
Definition mine (lk : option (nat * nat)) (t : nat) : Prop :=
  match lk with Some (o, _) => o = t | None => True end.

Lemma mine_other : forall lk t t', mine lk t -> t' <> t -> owns lk t' = false.
Proof. intros [[o d]|] t t' H Hne; cbn in *; [apply Nat.eqb_neq; congruence|reflexivity]. Qed.

Definition lock_handover (lk lk' : option (nat * nat)) (t : nat) : Prop :=
  lk' = lk \/ (mine lk t /\ mine lk' t).

Lemma lock_handover_other : forall lk lk' t m, lock_handover lk lk' t -> m <> t -> owns lk' m = owns lk m.
Proof. intros lk lk' t m [->|[M M']] Hne; [reflexivity|]. rewrite !(mine_other _ t) by assumption. reflexivity. Qed.

Lemma thread_ok_other : forall lk t th, owns lk t = false ->
  thread_ok lk t th <-> progs_wb (th_prog th) /\ in_flight th = false.
Proof. intros [[o d]|] t th H; cbn in *; [rewrite H|]; reflexivity. Qed.

Lemma thread_ok_owner : forall d t th,
  thread_ok (Some (t, d)) t th <-> exists h rest, th_prog th = h :: rest /\ closes d h = true /\ progs_wb rest.
Proof. intros d t th. cbn. rewrite Nat.eqb_refl. reflexivity. Qed.

Lemma non_owner_ok_mono : forall lk lk' t th,
  (match lk with Some (o, _) => Nat.eqb o t = false | None => True end) ->
  (match lk' with Some (o, _) => Nat.eqb o t = false | None => True end) ->
  thread_ok lk t th -> thread_ok lk' t th.
Proof.
  intros lk lk' t th H1 H2. rewrite !thread_ok_other; auto; [destruct lk' as [[]|]|destruct lk as [[]|]]; auto.
Qed.

Definition inv (σ : state) : Prop :=
  (forall t th, nth_error (st_thr σ) t = Some th -> thread_ok (sh_lock (st_sh σ)) t th) /\
  (forall o d, sh_lock (st_sh σ) = Some (o, d) -> (1 <= d)%nat /\ nth_error (st_thr σ) o <> None).

Lemma inv_init : forall tid0 P,
  Forall progs_wb P -> inv (init tid0 P).
Proof.
  intros tid0 P HP. split; [|discriminate].
  intros t th H. cbn in *. rewrite nth_error_map in H.
  destruct (nth_error P t) as [p|] eqn:E; cbn in H; [|discriminate]. inversion H; subst.
  split; [|reflexivity]. cbn. rewrite Forall_forall in HP. apply HP. eapply nth_error_In; eauto.
Qed.

Lemma inv_owner : forall {σ o d}, inv σ -> sh_lock (st_sh σ) = Some (o, d) ->
  exists th op r rest d', nth_error (st_thr σ) o = Some th /\ th_prog th = (op :: r) :: rest /\
                          d = S d' /\ closes d (op :: r) = true /\ progs_wb rest.
Proof.
  intros σ o d [Hth Hlk] El. destruct (Hlk o d El) as [Hd Hn].
  destruct (nth_error (st_thr σ) o) as [th|] eqn:Eo; [|congruence].
  pose proof (Hth _ _ Eo) as K. rewrite El in K. apply thread_ok_owner in K.
  destruct d as [|d']; [inversion Hd|]. destruct K as ([|op r] & rest & Hp & Hc & Hrest); [discriminate|].
  exists th, op, r, rest, d'. auto.
Qed.

(* The steps possible under [inv].  An operation of the lock holder either releases the lock, and
   then the call is at its end, or leaves it held with the rest of the call closing the bracket. *)
Inductive step_case (re : bool) (σ : state) (t : nat) (th : thread) : state -> Prop :=
| sc_return : forall rest,
    th_prog th = [] :: rest -> progs_wb rest -> owns (sh_lock (st_sh σ)) t = false ->
    step_case re σ t th {| st_sh := st_sh σ; st_thr := upd (st_thr σ) t (do_return th rest) |}
| sc_check : forall r rest,
    th_prog th = (ConnectCheck :: r) :: rest -> progs_wb (r :: rest) ->
    owns (sh_lock (st_sh σ)) t = false -> th_inflight th = false ->
    step_case re σ t th {| st_sh := st_sh σ;
                           st_thr := upd (st_thr σ) t (with_local th (r :: rest) ConnectCheck (local_of th)) |}
| sc_acquire : forall r rest,
    th_prog th = (Acquire :: r) :: rest -> closes 1 r = true -> progs_wb rest ->
    sh_lock (st_sh σ) = None ->
    step_case re σ t th {| st_sh := set_lock (st_sh σ) (Some (t, 1%nat));
                           st_thr := upd (st_thr σ) t (with_local th (r :: rest) Acquire (local_of th)) |}
| sc_owner : forall d o r rest s' l',
    th_prog th = (o :: r) :: rest -> progs_wb rest -> sh_lock (st_sh σ) = Some (t, S d) ->
    exec_op re t (th_k th) (st_sh σ) (local_of th) o = Some (s', l') ->
    (sh_lock s' = None /\ r = [] \/ exists d', sh_lock s' = Some (t, S d') /\ closes (S d') r = true) ->
    step_case re σ t th {| st_sh := s'; st_thr := upd (st_thr σ) t (with_local th (r :: rest) o l') |}.

Lemma step_cases : forall re σ t σ', inv σ -> step re σ t = Some σ' ->
  exists th, nth_error (st_thr σ) t = Some th /\ step_case re σ t th σ'.
Proof.
  intros re σ t σ' Hi Hs. pose proof Hi as [Hth Hlk]. unfold step in Hs.
  destruct (nth_error (st_thr σ) t) as [th|] eqn:Et; [|discriminate]. exists th. split; [reflexivity|].
  destruct (th_prog th) as [|h rest] eqn:Ep; [discriminate|].
  pose proof (Hth t th Et) as Hok.
  destruct (owns (sh_lock (st_sh σ)) t) eqn:Eo.
  -    destruct (sh_lock (st_sh σ)) as [[ow d]|] eqn:El; [|discriminate]. apply Nat.eqb_eq in Eo. subst ow.
    destruct (inv_owner Hi El) as (th' & o & r & rest' & d' & Et' & Ep' & -> & Hc & Hrest).
    rewrite Et in Et'. inversion Et'; subst th'. rewrite Ep in Ep'. inversion Ep'; subst h rest'. rename d' into d.
    destruct (exec_op re t (th_k th) (st_sh σ) (local_of th) o) as [[s' l']|] eqn:Ex; [|discriminate].
    inversion Hs; subst σ'. apply (sc_owner re σ t th d o r rest s' l'); auto.
    destruct (is_lock_op o) eqn:Elo.
    + destruct o; try discriminate; cbn in Ex, Hc; rewrite El in Ex; cbn in Ex; rewrite Nat.eqb_refl in Ex.
      * destruct re; inversion Ex. right. exists (S d). auto.
      * inversion Ex. destruct d as [|d]; [left; destruct r; [auto|discriminate]|right; exists d; auto].
    + destruct (exec_other re t (th_k th) (st_sh σ) (local_of th) o Elo) as (s1 & l1 & Ex1 & Hl & _).
      rewrite Ex in Ex1. inversion Ex1; subst s1 l1. rewrite (closes_other _ _ _ Elo) in Hc.
      right. exists d. rewrite Hl. auto.
  -    apply thread_ok_other in Hok; [|exact Eo]. destruct Hok as [Hw Hq]. rewrite Ep in Hw.
    inversion Hw as [|? ? Hh Hrest]; subst. destruct h as [|o r].
    + inversion Hs. apply sc_return; auto.
    + unfold in_flight in Hq. rewrite Ep, andb_true_r in Hq.
      destruct (wb_step_shape _ _ Hh) as [[-> Hr]|[-> Hr]]; cbn in Hs.
      * inversion Hs. apply sc_check; auto. constructor; auto.
      * destruct (sh_lock (st_sh σ)) as [[ow d]|] eqn:El; cbn in Hs, Eo; [rewrite Eo in Hs; discriminate|].
        inversion Hs. apply sc_acquire; auto.
Qed.

Lemma inv_upd : forall {σ t th} th' s', inv σ -> nth_error (st_thr σ) t = Some th ->
  thread_ok (sh_lock s') t th' -> lock_handover (sh_lock (st_sh σ)) (sh_lock s') t ->
  (sh_lock s' = sh_lock (st_sh σ) \/ forall d, sh_lock s' = Some (t, d) -> (1 <= d)%nat) ->
  inv {| st_sh := s'; st_thr := upd (st_thr σ) t th' |}.
Proof.
  intros σ t th th' s' [Hth Hlk] Et Hok Hl Hd. split; cbn [st_sh st_thr].
  - apply (upd_forall Et Hok). intros m z Hne Hz. pose proof (Hth m z Hz) as H.
    pose proof (lock_handover_other _ _ _ _ Hl Hne) as Eo.
    destruct (owns (sh_lock (st_sh σ)) m) eqn:E.
    + destruct Hl as [->|[M _]]; [exact H|]. rewrite (mine_other _ _ _ M Hne) in E. discriminate.
    + apply thread_ok_other; [exact Eo|]. apply thread_ok_other in H; assumption.
  - intros o d El. destruct Hd as [Hd|Hd]; [rewrite Hd in El; destruct (Hlk o d El); auto using nth_upd_some|].
    destruct Hl as [Hl|[_ M']]; [rewrite Hl in El; destruct (Hlk o d El); auto using nth_upd_some|].
    rewrite El in M'. cbn in M'. subst o. rewrite (nth_upd_eq th' Et). split; [auto|discriminate].
Qed.

Lemma inv_step : forall re σ t σ', inv σ -> step re σ t = Some σ' -> inv σ'.
Proof.
  intros re σ t σ' Hi Hs. destruct (step_cases re σ t σ' Hi Hs) as (th & Et & Hc).
  destruct Hc as [rest Ep Hrest Eo|r rest Ep Hw Eo Hq|r rest Ep Hc Hrest El|d o r rest s' l' Ep Hrest El Ex Hl].
  - (* return *)
    apply (inv_upd _ _ Hi Et); [|left; reflexivity|auto].
    apply thread_ok_other; [exact Eo|]. split; [exact Hrest|reflexivity].
  - (* connection check *)
    apply (inv_upd _ _ Hi Et); [|left; reflexivity|auto].
    apply thread_ok_other; [exact Eo|]. split; [exact Hw|]. unfold in_flight. cbn. rewrite Hq. reflexivity.
  - (* the free lock is taken *)
    apply (inv_upd _ _ Hi Et); [|right; rewrite El; split; [exact I|reflexivity]|right; intros d [= <-]; auto].
    apply thread_ok_owner. exists r, rest. auto.
  - (* an operation of the holder *)
    destruct Hl as [[El' ->]|(d' & El' & Hc)].
    + (* the lock is released *)
      apply (inv_upd _ _ Hi Et); [|right; rewrite El, El'; split; [reflexivity|exact I]|right; rewrite El'; discriminate].
      rewrite El'. split; [constructor; auto|]. apply andb_false_r.
    + apply (inv_upd _ _ Hi Et); [|right; rewrite El, El'; split; reflexivity|].
      * rewrite El'. apply thread_ok_owner. exists r, rest. auto.
      * right. rewrite El'. intros ? [= <-]. apply le_n_S, Nat.le_0_l.
Qed.

Lemma inv_reachable : forall re σ0 σ, inv σ0 -> reachable re σ0 σ -> inv σ.
Proof. intros re σ0 σ H0 Hr. induction Hr; auto. eapply inv_step; eauto. Qed.

Lemma run_reachable : forall re sched σ0 σ, reachable re σ0 σ -> reachable re σ0 (run re sched σ).
Proof.
  induction sched as [|t r IH]; intros σ0 σ H; cbn; auto.
  destruct (step re σ t) as [σ'|] eqn:E; auto. apply IH. eapply reach_step; eauto.
Qed.

Lemma inv_owner_exclusive : forall σ o d t th, inv σ ->
  sh_lock (st_sh σ) = Some (o, d) -> nth_error (st_thr σ) t = Some th -> t <> o ->
  progs_wb (th_prog th) /\ in_flight th = false.
Proof.
  intros σ o d t th [Hth _] El Ht Hne. apply (thread_ok_other (sh_lock (st_sh σ)) t); auto.
  rewrite El. apply Nat.eqb_neq. congruence.
Qed.

Lemma inv_mutex : forall σ t1 t2 th1 th2, inv σ ->
  nth_error (st_thr σ) t1 = Some th1 -> nth_error (st_thr σ) t2 = Some th2 ->
  in_flight th1 = true -> in_flight th2 = true -> t1 = t2.
Proof.
  intros σ t1 t2 th1 th2 Hi H1 H2 F1 F2.
  assert (K : forall t th, nth_error (st_thr σ) t = Some th -> in_flight th = true ->
              owns (sh_lock (st_sh σ)) t = true).
  { intros t th Ht F. destruct (owns _ t) eqn:E; [reflexivity|].
    apply (proj1 Hi), thread_ok_other in Ht; [|exact E]. destruct Ht; congruence. }
  apply (K t1 th1 H1) in F1. apply (K t2 th2 H2) in F2. destruct (sh_lock (st_sh σ)) as [[o d]|]; [|discriminate].
  apply Nat.eqb_eq in F1, F2. congruence.
Qed.

Lemma not_all_done : forall l, forallb thread_done l = false ->
  exists t th, nth_error l t = Some th /\ th_prog th <> [].
Proof.
  induction l as [|x l IH]; cbn; intros H; [discriminate|].
  destruct (thread_done x) eqn:E; cbn in H.
  - destruct (IH H) as (t & th & Ht & Hp). exists (S t), th. auto.
  - exists O, x. split; auto. unfold thread_done in E. destruct (th_prog x); congruence.
Qed.

Lemma inv_progress : forall σ, inv σ ->
  (exists t σ', step true σ t = Some σ') \/ all_done σ = true.
Proof.
  intros σ Hi. pose proof Hi as [Hth Hlk]. destruct (sh_lock (st_sh σ)) as [[o d]|] eqn:El.
  - left. destruct (inv_owner Hi El) as (th & op & r & rest & d0 & Eo & Hp & -> & _).
    exists o. unfold step. rewrite Eo, Hp.
    destruct (is_lock_op op) eqn:Elo.
    + destruct op; cbn in Elo; try discriminate; cbn; rewrite El; cbn; rewrite Nat.eqb_refl; eexists; reflexivity.
    + destruct (exec_other true o (th_k th) (st_sh σ) (local_of th) op Elo) as (s' & l' & Hx & _).
      rewrite Hx. eexists; reflexivity.
  - destruct (all_done σ) eqn:Ed; [right; reflexivity|left].
    destruct (not_all_done _ Ed) as (t & th & Ht & Hp).
    pose proof (Hth _ _ Ht) as K. destruct K as [Hw _].
    destruct (th_prog th) as [|h rest] eqn:Ep; [congruence|].
    exists t. unfold step. rewrite Ht, Ep. destruct h as [|op r]; [eexists; reflexivity|].
    inversion Hw as [|? ? Hh _]; subst.
    destruct (wb_step_shape _ _ Hh) as [[-> _]|[-> _]]; cbn; [|rewrite El; cbn]; eexists; reflexivity.
Qed.

Lemma closes_app_nolock : forall body d r, no_lock_ops body = true ->
  closes (S d) (body ++ r) = closes (S d) r.
Proof.
  induction body as [|o b IH]; intros d r Hn; [reflexivity|].
  cbn in Hn. apply andb_prop in Hn. destruct Hn as [Ho Hb].
  change ((o :: b) ++ r) with (o :: (b ++ r)). rewrite closes_other, IH by (auto; destruct o; auto; discriminate).
  reflexivity.
Qed.

Lemma closes_repeat : forall n body d r, no_lock_ops body = true ->
  closes (S d) (repeat_ops n body ++ r) = closes (S d) r.
Proof.
  induction n as [|n IH]; intros body d r Hn; cbn; auto.
  rewrite <- app_assoc, closes_app_nolock by auto. apply IH; auto.
Qed.

Definition wb_program (P : list (list (list lop))) : Prop := Forall progs_wb P.

Lemma inv_program : forall re tid0 P σ, wb_program P -> reachable re (init tid0 P) σ -> inv σ.
Proof. intros re tid0 P σ HP. apply inv_reachable, inv_init, HP. Qed.

Theorem mutex_all_schedules : forall re tid0 P σ t1 t2 th1 th2,
  wb_program P -> reachable re (init tid0 P) σ ->
  nth_error (st_thr σ) t1 = Some th1 -> nth_error (st_thr σ) t2 = Some th2 ->
  in_flight th1 = true -> in_flight th2 = true -> t1 = t2.
Proof. intros re tid0 P σ t1 t2 th1 th2 HP Hr. eapply inv_mutex, inv_program; eauto. Qed.

Theorem mutex_run : forall re tid0 P sched t1 t2 th1 th2,
  wb_program P ->
  nth_error (st_thr (run re sched (init tid0 P))) t1 = Some th1 ->
  nth_error (st_thr (run re sched (init tid0 P))) t2 = Some th2 ->
  in_flight th1 = true -> in_flight th2 = true -> t1 = t2.
Proof.
  intros re tid0 P sched t1 t2 th1 th2 HP. eapply mutex_all_schedules; eauto.
  apply run_reachable. constructor.
Qed.

Lemma wb_program_uniform : forall call calls,
  well_bracketed call = true -> wb_program (map (fun n => repeat call n) calls).
Proof.
  intros call calls H. apply Forall_map, Forall_forall. intros n _. apply Forall_forall.
  intros sk Hs. apply repeat_spec in Hs. subst; auto.
Qed.
