(* Shared_proofs.v — every entry of the shared-state inventory is an audited one; the per-property
   statements of Props/Cxx_shared.v are weakenings of that. *)
From PM.theories Require Import Base SharedAudit.
From PM.Generated Require Import GenShared.
Import ListNotations.
Open Scope string_scope.
Open Scope list_scope.

Definition all_pids : list string := map fst anchors.

Definition is_nil {A} (l : list A) : bool := match l with [] => true | _ => false end.
Lemma is_nil_spec : forall A (l : list A), is_nil l = true -> l = [].
Proof. intros A l H. destruct l; [reflexivity | discriminate]. Qed.

Definition clean_b (pid : string) : bool := is_nil (unaudited_for shared_state anchors common_files pid).

Lemma filter_nil_iff {A} (f : A -> bool) l : filter f l = [] <-> forall x, In x l -> f x = false.
Proof.
  split.
  - intros H x Hx. destruct (f x) eqn:E; [|reflexivity].
    assert (Hin : In x (filter f l)) by (apply filter_In; auto). rewrite H in Hin. destruct Hin.
  - induction l as [|x l IH]; intros H; cbn; [reflexivity|].
    rewrite (H x (or_introl eq_refl)). apply IH. intros y Hy. apply H. right. exact Hy.
Qed.

Lemma unaudited_for_nil_iff : forall (S : list entry) A c pid,
  unaudited_for S A c pid = [] <->
  forall e, In e S -> relevant A c pid e = true -> mem_entry e audited = true.
Proof.
  intros S A c pid. unfold unaudited_for. rewrite filter_nil_iff.
  split; intros H e He; specialize (H e He); destruct (relevant A c pid e), (mem_entry e audited); cbn in *; intuition congruence.
Qed.

(* All entries are audited, whichever file they are in (gen/gen_shared.py scans the anchored and
   the common files only). *)
Lemma inventory_audited : forall e, In e shared_state -> mem_entry e audited = true.
Proof. apply forallb_forall. vm_compute. reflexivity. Qed.

Lemma shared_ok : forall pid, unaudited_for shared_state anchors common_files pid = [].
Proof. intros pid. apply unaudited_for_nil_iff. intros e He _. exact (inventory_audited e He). Qed.

Lemma shared_ok_all : forallb clean_b all_pids = true.
Proof. apply forallb_forall. intros pid _. unfold clean_b. rewrite shared_ok. reflexivity. Qed.

Lemma inventory_nonvacuous : forallb (fun e => mem_entry e shared_state) audited = true /\ (20 <= length shared_state)%nat.
Proof. split; [vm_compute; reflexivity | apply Nat.leb_le; reflexivity]. Qed.
