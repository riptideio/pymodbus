(* ClientRtu_ready_proofs.v — the decoder, configuration and request of the run of the serial RTU client that shows the
   hypotheses of Props/C13_rtu.v satisfiable. *)
From PM.theories Require Import Base FrBCommon Client.
Open Scope list_scope.
Open Scope Z_scope.

Definition rdemo_dec (p : bytes) : FrBCommon.dres := match p with [] => FrBCommon.DNone | _ => FrBCommon.DMsg end.
Lemma rdemo_total : forall pdu, rdemo_dec pdu = FrBCommon.DMsg \/ rdemo_dec pdu = FrBCommon.DNone.
Proof. intros [|b t]; [right|left]; reflexivity. Qed.
Definition cfg_rtu_demo : Client.cfg :=
  {| c_framing := FRtu; c_udp := false; c_retries_kw := Some 1; c_roe := true; c_roi := true; c_bcast := false |}.
Definition rq_rtu : req := {| r_unit := 5; r_fc := 3; r_psize := Some 4; r_id := 0 |}.

