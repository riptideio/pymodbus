(* One request.  [serve] interpreting the generated guard scripts (GenExec.code) over the datastore
   model refines ExecSpec.spec_exec on the normalised wire request: [normalize] is the identity except
   for the two known defects (FC5 treats every value word other than 0xFF00 as 0x0000; FC15 uses
   len(values) = min(quantity, 8*|data|) instead of the wire quantity).  Every limit, guard order,
   validate call, the order of setValues / getValues and the mask expression of the scripts is used:
   changing one of them in /repo changes GenExec.v and breaks a step below. *)
From PM.theories Require Import Base Expr Store Exec ExecSpec ExecView.
From PM.Generated Require Import GenStore GenExec.
From PM.proofs Require Import Base_proofs Exec_proofs.
Open Scope string_scope.
Open Scope list_scope.
Open Scope Z_scope.

Notation SC := GenStore.code.
Notation XC := GenExec.code.
Definition std : ctxops slavectx := std_ops SC.

(* symbolic execution of a script: interpreter and expression evaluator are unfolded on the request
   record, the datastore calls [cx_validate] / [cx_get] / [cx_set] stay.  The list names the generated
   scripts it may open (the four read requests run [read_script] below) *)
Ltac exec_simpl :=
  lazy [run_script run do_exception exc_fc std std_ops o_validate o_get o_set
       eval_lexpr eval_rarg eval_rargs bind assoc_str
       beval eval eval_bin eval_cmp env_of req_env app String.eqb Ascii.eqb Bool.eqb
       GenExec.code x_exc_fc x_slave_failure x_illegal_code
       r_fc r_address r_count r_value r_byte_count r_and_mask r_or_mask r_read_address r_read_count
       r_write_address r_write_count r_write_byte_count r_values r_write_registers
       GenExec.WriteSingleCoilRequest GenExec.WriteSingleRegisterRequest
       GenExec.WriteMultipleCoilsRequest GenExec.WriteMultipleRegistersRequest
       GenExec.MaskWriteRegisterRequest GenExec.ReadWriteMultipleRegistersRequest];
  rewrite ?z2b_b2z.

Lemma dispatch_script X fc cls sc :
  assoc_z (x_scripts X) fc = Some (cls, sc) -> dispatch X fc = DScript cls sc.
Proof. unfold dispatch. intros ->. reflexivity. Qed.

Definition normalize (w : wreq) : wreq :=
  match w with
  | WWriteCoil a word => WWriteCoil a (if word =? 65280 then 65280 else 0)
  | WWriteCoils a n bc data =>
      WWriteCoils a (Z.of_nat (length (firstn (Z.to_nat n) (bits_of_bytes data)))) bc data
  | _ => w
  end.

(* where the implementation conforms *)
Definition in_region (w : wreq) : Prop :=
  match w with
  | WWriteCoil _ word => word = 0 \/ word = 65280
  | WWriteCoils _ n _ data => n <= 8 * Z.of_nat (length data)
  | _ => True
  end.

Definition supported (fc : Z) : bool := existsb (Z.eqb fc) (x_known_fcs XC).

(* [WOther fc] stands for a function code outside ServerDecoder's function table *)
Definition other_ok (w : wreq) : Prop :=
  match w with WOther fc => supported fc = false | _ => True end.

Lemma bits_of_bytes_length data : length (bits_of_bytes data) = (8 * length data)%nat.
Proof. induction data as [|b t IH]; [reflexivity|]. cbn [bits_of_bytes flat_map]. rewrite app_length. cbn [length bits_of_byte map]. fold (bits_of_bytes t). lia. Qed.

Lemma normalize_in_region w : in_region w -> forall s, spec_exec s (normalize w) = spec_exec s w.
Proof.
  destruct w; cbn [in_region normalize]; intros H s; try reflexivity.
  - destruct H as [-> | ->]; reflexivity.
  - rewrite firstn_length, bits_of_bytes_length.
    destruct (Z_lt_le_dec qty 0) as [Hneg|Hpos].
    + (* negative quantity: both are rejected with 03 *)
      replace (Z.to_nat qty) with O by lia. cbn [Nat.min Z.of_nat].
      unfold spec_exec, spec_outcome, in_range.
      replace ((1 <=? 0) && (0 <=? 1968)) with false by lia.
      replace ((1 <=? qty) && (qty <=? 1968)) with false by lia. reflexivity.
    + replace (Z.of_nat (Nat.min (Z.to_nat qty) (8 * length data))) with qty by lia. reflexivity.
Qed.

Lemma take_words_spec n data vs :
  take_words n data = Ok vs -> vs = firstn n (words_of_bytes data) /\ length vs = n.
Proof.
  revert data vs. induction n as [|n IH]; intros data vs H.
  - cbn in H. injection H as <-. split; reflexivity.
  - cbn [take_words] in H. destruct data as [|hi [|lo t]]; try discriminate.
    destruct (take_words n t) as [r|] eqn:E; cbn [bind] in H; [|discriminate].
    injection H as <-. destruct (IH t r E) as [-> Hl]. cbn [words_of_bytes firstn length].
    split; [reflexivity|]. rewrite Hl. reflexivity.
Qed.

Lemma decoded_words q data vs :
  take_words (Z.to_nat q) data = Ok vs -> 1 <= q ->
  vs = firstn (Z.to_nat q) (words_of_bytes data) /\ Z.of_nat (length vs) = q /\ vs <> [].
Proof.
  intros H Hq. destruct (take_words_spec _ _ _ H) as [Hvs Hl]. split; [exact Hvs|].
  split; [lia|]. intros ->. cbn [length] in Hl. lia.
Qed.

(* the words the FC 23 decoder reads, (write_byte_count + 1) / 2, at byte count 2·wn *)
Lemma half_up n : (n * 2 + 1) / 2 = n.
Proof. rewrite Z.div_add_l by discriminate. apply Z.add_0_r. Qed.

Lemma in_range_true lo x hi : in_range lo x hi = true -> lo <= x <= hi.
Proof. unfold in_range. lia. Qed.

Definition vw : rsp -> option srsp := view XC.

Definition step_ok (c : slavectx) (r : req) (w : wreq) : Prop :=
  exists c' o, serve XC std c r = (c', o) /\ inv c' /\
    aeq (abs c') (fst (spec_exec (abs c) w)) /\
    vw o = Some (snd (spec_exec (abs c) w)) /\
    (forall fc code, o = Exc fc code -> c' = c).

(* an exit with an exception: both sides have been reduced to it, the store is untouched *)
Ltac finish_exc :=
  eexists; eexists; split; [reflexivity|]; split; [assumption|]; split; [apply aeq_refl|];
  split; [reflexivity|]; intros; reflexivity.

(* a normal exit, once the result of [serve] is known *)
Ltac finish_ok :=
  split; [assumption|]; split; [first [apply aeq_refl | assumption]|];
  split; [reflexivity|]; intros ? ? Hx; discriminate Hx.

(* the four read requests run one script, with their function code, limit and response class *)
Definition read_script (fc lim : Z) (cls : string) : script :=
  [ SGuard (ENotB (EChain (EInt 1) Le (EAtom "self.count") Le (EInt lim))) 3;
    SValidate (EInt fc) (EAtom "self.address") (EAtom "self.count") 2;
    SGet "values" (EInt fc) (EAtom "self.address") (EAtom "self.count");
    SReturn cls [AL (LVar "values")] ].

Definition read_lim (t : tbl) : Z := match t with Coils | Discrete => 2000 | Holding | Input => 125 end.

Lemma dispatch_read t : exists req rsp,
  dispatch XC (read_fc t) = DScript req (read_script (read_fc t) (read_lim t) rsp) /\
  forall v, vw (Rsp rsp [VL v]) = Some (SRead (read_fc t) v).
Proof. destruct t; do 2 eexists; split; reflexivity. Qed.

Lemma fx_tbl_read t : fx_tbl (read_fc t) = Some t.
Proof. destruct t; reflexivity. Qed.

Lemma step_read c t a n : inv c ->
  forall r, decode_attrs (WRead t a n) = Ok r -> step_ok c r (WRead t a n).
Proof.
  intros Hi r Hd. cbn [decode_attrs] in Hd. injection Hd as <-. unfold step_ok, serve. cbn [r_fc].
  destruct (dispatch_read t) as (req & rsp & -> & Hv). pose proof (fx_tbl_read t) as Ht.
  cbv [read_script]. exec_simpl.
  unfold spec_exec, spec_outcome; cbn [wfc]. fold (read_lim t) (in_range 1 n (read_lim t)).
  destruct (in_range 1 n (read_lim t)) eqn:G; cbn [negb]; [|finish_exc]. apply in_range_true in G.
  rewrite (cx_validate_abs c _ t a n Hi Ht (proj1 G)).
  destruct (range_ok (abs c) t a n) eqn:R; cbn [negb]; [|finish_exc].
  rewrite (cx_get_abs c _ t a n Hi Ht (proj1 G) R).
  eexists; eexists; split; [reflexivity|]. cbn [spec_apply fst snd].
  (* [finish_ok], with [Hv] for the response class, which is a variable here *)
  split; [assumption|]. split; [apply aeq_refl|]. split; [apply Hv|]. intros ? ? Hx; discriminate Hx.
Qed.

Lemma write1_readback c fx t a v :
  inv c -> fx_tbl fx = Some t -> range_ok (abs c) t a 1 = true ->
  exists c', cx_set SC c fx a [v] = Ok c' /\ inv c' /\ aeq (abs c') (write (abs c) t a [v]) /\
             cx_get SC c' fx a 1 = Ok [v].
Proof.
  intros Hi Hf Hr.
  destruct (cx_set_abs c fx t a [v] Hi Hf ltac:(discriminate) Hr) as (c' & Hs & Hi' & Ha).
  exists c'. split; [exact Hs|]. split; [exact Hi'|]. split; [exact Ha|].
  assert (Hr' : range_ok (abs c') t a 1 = true).
  { rewrite (range_ok_aeq _ _ t a 1 Ha). rewrite (range_ok_write (abs c) t a [v] t a 1 Hr). exact Hr. }
  rewrite (cx_get_abs c' fx t a 1 Hi' Hf (Z.le_refl 1) Hr').
  rewrite (read_aeq _ _ t a 1 Ha). f_equal. apply (read_write_same (abs c) t a [v]).
Qed.

Lemma step_wcoil c a word : inv c ->
  forall r, decode_attrs (WWriteCoil a word) = Ok r -> step_ok c r (normalize (WWriteCoil a word)).
Proof.
  intros Hi r Hd. cbn [decode_attrs] in Hd. injection Hd as <-. unfold step_ok, serve. cbn [r_fc normalize].
  rewrite (dispatch_script XC 5 _ _ eq_refl). exec_simpl.
  unfold spec_exec, spec_outcome; cbn [wfc].
  replace (negb (((if word =? 65280 then 65280 else 0) =? 0) || ((if word =? 65280 then 65280 else 0) =? 65280)))
    with false by (destruct (word =? 65280); reflexivity).
  rewrite (cx_validate_abs c 5 Coils a 1 Hi eq_refl (Z.le_refl 1)).
  destruct (range_ok (abs c) Coils a 1) eqn:R; cbn [negb]; [|finish_exc].
  destruct (write1_readback c 5 Coils a (b2z (word =? 65280)) Hi eq_refl R) as (c' & Hs & Hi' & Ha & Hg).
  rewrite Hs, Hg.
  eexists; eexists; split; [reflexivity|]. cbn [spec_apply fst snd].
  replace ((if word =? 65280 then 65280 else 0) =? 65280) with (word =? 65280)
    by (destruct (word =? 65280); reflexivity).
  replace (if word =? 65280 then 1 else 0) with (b2z (word =? 65280)) by reflexivity.
  finish_ok.
Qed.

Lemma step_wreg c a v : inv c ->
  forall r, decode_attrs (WWriteReg a v) = Ok r -> step_ok c r (WWriteReg a v).
Proof.
  intros Hi r Hd. cbn [decode_attrs] in Hd. injection Hd as <-. unfold step_ok, serve. cbn [r_fc].
  rewrite (dispatch_script XC 6 _ _ eq_refl). exec_simpl.
  unfold spec_exec, spec_outcome; cbn [wfc]. fold (in_range 0 v 65535).
  destruct (in_range 0 v 65535); cbn [negb]; [|finish_exc].
  rewrite (cx_validate_abs c 6 Holding a 1 Hi eq_refl (Z.le_refl 1)).
  destruct (range_ok (abs c) Holding a 1) eqn:R; cbn [negb]; [|finish_exc].
  destruct (write1_readback c 6 Holding a v Hi eq_refl R) as (c' & Hs & Hi' & Ha & Hg).
  rewrite Hs, Hg.
  eexists; eexists; split; [reflexivity|]. cbn [spec_apply fst snd]. finish_ok.
Qed.

Lemma firstn_length_firstn {A} (l : list A) k : firstn (length (firstn k l)) l = firstn k l.
Proof.
  revert l. induction k as [|k IH]; intros [|x l]; cbn; try reflexivity. f_equal. apply IH.
Qed.

Lemma step_wcoils c a n bc data : inv c ->
  forall r, decode_attrs (WWriteCoils a n bc data) = Ok r -> step_ok c r (normalize (WWriteCoils a n bc data)).
Proof.
  intros Hi r Hd. cbn [decode_attrs] in Hd. injection Hd as <-. unfold step_ok, serve. cbn [r_fc normalize].
  rewrite (dispatch_script XC 15 _ _ eq_refl). exec_simpl.
  set (vals := firstn (Z.to_nat n) (bits_of_bytes data)).
  set (m := Z.of_nat (length vals)).
  unfold spec_exec, spec_outcome; cbn [wfc]. fold (in_range 1 m 1968).
  destruct (in_range 1 m 1968) eqn:G; cbn [negb orb]; [|finish_exc]. apply in_range_true in G.
  destruct (negb (bc =? (m + 7) / 8)); [finish_exc|].
  rewrite (cx_validate_abs c 15 Coils a m Hi eq_refl (proj1 G)).
  destruct (range_ok (abs c) Coils a m) eqn:R; cbn [negb]; [|finish_exc].
  assert (Hne : vals <> []) by (intros E; subst m; rewrite E in G; cbn in G; lia).
  destruct (cx_set_abs c 15 Coils a vals Hi eq_refl Hne R) as (c' & Hs & Hi' & Ha).
  rewrite Hs.
  eexists; eexists; split; [reflexivity|]. cbn [spec_apply fst snd].
  subst m. rewrite Nat2Z.id.
  replace (firstn (length vals) (bits_of_bytes data)) with vals
    by (unfold vals; rewrite firstn_length_firstn; reflexivity).
  finish_ok.
Qed.

Lemma step_wregs c a n bc data : inv c ->
  forall r, decode_attrs (WWriteRegs a n bc data) = Ok r -> step_ok c r (WWriteRegs a n bc data).
Proof.
  intros Hi r Hd. cbn [decode_attrs] in Hd.
  destruct (take_words (Z.to_nat n) data) as [vs|] eqn:Et; cbn [bind] in Hd; [|discriminate].
  injection Hd as <-.
  unfold step_ok, serve. cbn [r_fc]. rewrite (dispatch_script XC 16 _ _ eq_refl). exec_simpl.
  unfold spec_exec, spec_outcome; cbn [wfc]. fold (in_range 1 n 123).
  destruct (in_range 1 n 123) eqn:G; cbn [negb orb]; [|finish_exc]. apply in_range_true in G.
  destruct (negb (bc =? n * 2)); [finish_exc|].
  destruct (decoded_words _ _ _ Et (proj1 G)) as (Hvs & Hn & Hne).
  rewrite (cx_validate_abs c 16 Holding a n Hi eq_refl (proj1 G)).
  destruct (range_ok (abs c) Holding a n) eqn:R; cbn [negb]; [|finish_exc].
  rewrite <- Hn in R.
  destruct (cx_set_abs c 16 Holding a vs Hi eq_refl Hne R) as (c' & Hs & Hi' & Ha).
  rewrite Hs.
  eexists; eexists; split; [reflexivity|]. cbn [spec_apply fst snd]. rewrite <- Hvs.
  finish_ok.
Qed.

Lemma read1 s t a : read s t a 1 = [match cell s t a with Some v => v | None => 0 end].
Proof. reflexivity. Qed.

Lemma step_mask c a am om : inv c ->
  forall r, decode_attrs (WMask a am om) = Ok r -> step_ok c r (WMask a am om).
Proof.
  intros Hi r Hd. cbn [decode_attrs] in Hd. injection Hd as <-. unfold step_ok, serve. cbn [r_fc].
  rewrite (dispatch_script XC 22 _ _ eq_refl). exec_simpl.
  unfold spec_exec, spec_outcome; cbn [wfc]. fold (in_range 0 am 65535) (in_range 0 om 65535).
  destruct (in_range 0 am 65535); cbn [negb orb]; [|finish_exc].
  destruct (in_range 0 om 65535); cbn [negb]; [|finish_exc].
  rewrite (cx_validate_abs c 22 Holding a 1 Hi eq_refl (Z.le_refl 1)).
  destruct (range_ok (abs c) Holding a 1) eqn:R; cbn [negb]; [|finish_exc].
  rewrite (cx_get_abs c 22 Holding a 1 Hi eq_refl (Z.le_refl 1) R). rewrite read1.
  set (cur := match cell (abs c) Holding a with Some v => v | None => 0 end).
  destruct (cx_set_abs c 22 Holding a [Z.lor (Z.land cur am) (Z.land om (Z.lnot am))] Hi eq_refl
              ltac:(discriminate) R) as (c' & Hs & Hi' & Ha).
  rewrite Hs.
  eexists; eexists; split; [reflexivity|]. cbn [spec_apply fst snd]. fold cur. unfold mask_result.
  finish_ok.
Qed.

Lemma step_rwm c ra rn wa wn wbc data : inv c ->
  forall r, decode_attrs (WRWM ra rn wa wn wbc data) = Ok r -> step_ok c r (WRWM ra rn wa wn wbc data).
Proof.
  intros Hi r Hd. cbn [decode_attrs] in Hd.
  destruct (take_words (Z.to_nat ((wbc + 1) / 2)) data) as [vs|] eqn:Et; cbn [bind] in Hd; [|discriminate].
  injection Hd as <-.
  unfold step_ok, serve. cbn [r_fc]. rewrite (dispatch_script XC 23 _ _ eq_refl). exec_simpl.
  unfold spec_exec, spec_outcome; cbn [wfc]. fold (in_range 1 rn 125) (in_range 1 wn 121).
  destruct (in_range 1 rn 125) eqn:G; cbn [negb orb]; [|finish_exc].
  destruct (in_range 1 wn 121) eqn:G2; cbn [negb orb]; [|finish_exc].
  destruct (Z.eqb_spec wbc (wn * 2)) as [->|_]; cbn [negb]; [|finish_exc].
  apply in_range_true in G, G2. rewrite half_up in Et.
  destruct (decoded_words _ _ _ Et (proj1 G2)) as (Hvs & Hn & Hne).
  rewrite (cx_validate_abs c 23 Holding wa wn Hi eq_refl (proj1 G2)).
  destruct (range_ok (abs c) Holding wa wn) eqn:Rw; cbn [negb orb]; [|finish_exc].
  rewrite (cx_validate_abs c 23 Holding ra rn Hi eq_refl (proj1 G)).
  destruct (range_ok (abs c) Holding ra rn) eqn:Rr; cbn [negb]; [|finish_exc].
  rewrite <- Hn in Rw.
  destruct (cx_set_abs c 23 Holding wa vs Hi eq_refl Hne Rw) as (c' & -> & Hi' & Ha).
  assert (Rr' : range_ok (abs c') Holding ra rn = true).
  { rewrite (range_ok_aeq _ _ Holding ra rn Ha), (range_ok_write (abs c) Holding wa vs Holding ra rn Rw). exact Rr. }
  rewrite (cx_get_abs c' 23 Holding ra rn Hi' eq_refl (proj1 G) Rr').
  eexists; eexists; split; [reflexivity|]. cbn [spec_apply fst snd]. rewrite <- Hvs.
  rewrite (read_aeq _ _ Holding ra rn Ha).
  finish_ok.
Qed.

Lemma assoc_z_outside {A} (P : Z -> bool) (l : list (Z * A)) k :
  forallb (fun p => P (fst p)) l = true -> P k = false -> assoc_z l k = None.
Proof.
  induction l as [|[k0 v] l IH]; cbn [forallb assoc_z fst]; intros H Hk; [reflexivity|].
  apply andb_true_iff in H as [H0 H]. destruct (Z.eqb_spec k0 k) as [->|_]; [congruence|auto].
Qed.

Lemma dispatch_unsupported fc : supported fc = false -> dispatch XC fc = DIllegal.
Proof.
  intros H. unfold dispatch. fold (supported fc). rewrite H.
  (* [eq_refl]: every function code with a script is in the decoder's table *)
  rewrite (assoc_z_outside supported (x_scripts XC) fc eq_refl H). reflexivity.
Qed.

Lemma step_other c fc : inv c -> supported fc = false ->
  forall r, decode_attrs (WOther fc) = Ok r -> step_ok c r (WOther fc).
Proof.
  intros Hi Hs r Hd. cbn [decode_attrs] in Hd. injection Hd as <-. unfold step_ok, serve, req0. cbn [r_fc].
  rewrite (dispatch_unsupported fc Hs). exec_simpl.
  unfold spec_exec, spec_outcome; cbn [wfc]. finish_exc.
Qed.

Theorem step_norm c w r :
  inv c -> decode_attrs w = Ok r -> other_ok w -> step_ok c r (normalize w).
Proof.
  intros Hi Hd Ho. destruct w; cbn [other_ok] in Ho.
  - apply step_read; assumption.
  - apply step_wcoil; assumption.
  - apply step_wreg; assumption.
  - apply step_wcoils; assumption.
  - apply step_wregs; assumption.
  - apply step_mask; assumption.
  - apply step_rwm; assumption.
  - apply step_other; assumption.
Qed.

Theorem step_refines c w r :
  inv c -> decode_attrs w = Ok r -> other_ok w -> in_region w -> step_ok c r w.
Proof.
  intros Hi Hd Ho Hr. pose proof (step_norm c w r Hi Hd Ho) as H.
  unfold step_ok in *. rewrite (normalize_in_region w Hr) in H. exact H.
Qed.
