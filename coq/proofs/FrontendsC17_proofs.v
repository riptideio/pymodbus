(* FrontendsC17_proofs.v — C17 lemmas about the GENERATED execute / loop skeletons. *)
From PM.theories Require Import Base Ladder Frontends.
From PM.Generated Require Import GenFrontends.
From PM.proofs Require Import Frontends_proofs.
Open Scope list_scope.
Open Scope Z_scope.
#[local] Arguments cs_f {FS}.
#[local] Arguments sv_world {FS World}.
#[local] Arguments sv_conns {FS World}.
#[local] Arguments sv_shared {FS World}.

Definition stream_fe (fe : frontend) : Prop := fe = SyncTcp \/ fe = AioTcp \/ fe = TwTcp.

(* what [callback] reads of an execute skeleton when broadcast is off, [send] apart *)
Definition exec_view (X : exec_skel) := (xs_ladder X, xs_copy_tid X, xs_copy_uid X).

Lemma generated_exec_agree : forall fe, exec_view (fc_exec code fe) = exec_view exec_SyncTcp.
Proof. intros fe; destruct fe; reflexivity. Qed.

Lemma stream_checks_respond : forall fe, stream_fe fe -> xs_send_checks_respond (fc_exec code fe) = true.
Proof. intros fe [->|[->| ->]]; reflexivity. Qed.

Lemma raise_not_continue : forall fe e, step_action (fc_loop code fe) false (Some (RPy e)) <> Continue.
Proof. intros fe e; destruct fe; vm_compute; discriminate. Qed.

Lemma continue_and : forall a b, action_eqb a Continue && b = true -> a = Continue /\ b = true.
Proof. intros a b H. apply andb_prop in H. destruct H as [Ha Hb]. destruct a; try discriminate Ha. auto. Qed.

Section Equiv.
  Variables FS Req Resp World : Type.
  Variable E : env FS Req Resp World.
  Notation serve_step := (serve_step FS Req Resp World code E).
  Notation serve_activation := (serve_activation FS Req Resp World code E).
  Notation serve_event := (serve_event FS Req Resp World code E).
  Notation run_events := (run_events FS Req Resp World code E).
  Notation deliver := (deliver FS Req Resp World E).
  Notation callback := (callback FS Req Resp World E).
  Notation tail := (tail FS Req Resp World E).
  Notation send := (send FS Req Resp World E).
  Notation fargs_for := (fargs_for FS Req Resp World E).
  Notation run_conn := (run_conn FS Req Resp World code E).
  Notation fresh_conn := (fresh_conn FS Req Resp World E).
  Notation finit := (e_finit FS Req Resp World E).
  Notation data_core := (data_core FS Req Resp World code E).
  Notation framer_reached := (framer_reached FS Req Resp World E).

  (* the features the three front-ends have in common: no broadcast option (Twisted has none),
     listen-only mode never entered (only Twisted honours it), and a world abstraction that does
     not observe the bus-message counter (only Twisted increments it) *)
  Record common_features (c : cfg) : Prop := {
    cf_no_broadcast : cfg_broadcast c = false;
    cf_no_listen_only : forall w, e_listen_only _ _ _ _ E w = false;
    cf_bus_blind : forall w, e_count_bus _ _ _ _ E w = w }.

  Definition always_responds : Prop := forall p, e_should_respond _ _ _ _ E p = true.

  Lemma send_equiv : forall X Y w p, (forall w, e_count_bus _ _ _ _ E w = w) ->
    xs_send_checks_respond X = xs_send_checks_respond Y \/ e_should_respond _ _ _ _ E p = true ->
    send X w p = send Y w p.
  Proof.
    intros X Y w p Hbus Hr. unfold Frontends.send. rewrite !Hbus.
    destruct Hr as [->| ->]; rewrite ?Bool.andb_false_r;
      destruct (xs_counts_bus X), (xs_counts_bus Y); reflexivity.
  Qed.

  Lemma stream_send_equiv : forall a b w p, stream_fe a -> stream_fe b -> (forall w, e_count_bus _ _ _ _ E w = w) ->
    send (fc_exec code a) w p = send (fc_exec code b) w p.
  Proof.
    intros a b w p Ha Hb Hbus. apply send_equiv; [assumption|left].
    rewrite !stream_checks_respond by assumption. reflexivity.
  Qed.

  Lemma callback_equiv : forall X Y c w r, exec_view X = exec_view Y -> cfg_broadcast c = false ->
    (forall w p, send X w p = send Y w p) -> callback X c w r = callback Y c w r.
  Proof.
    intros X Y c w r [= Hl Ht Hu] Hb Hs. unfold Frontends.callback.
    rewrite Hb, Hl, !Bool.andb_false_r. cbn [andb].
    assert (HT : forall w1 p, tail X false w1 r p = tail Y false w1 r p).
    { intros w1 [p|]; unfold Frontends.tail; rewrite !Bool.andb_false_r; [|reflexivity].
      rewrite Ht, Hu. apply Hs. }
    destruct (e_run _ _ _ _ E w (e_uid _ _ _ _ E r) r) as [w1 [p|e]]; [apply HT|].
    destruct (first_match (xs_ladder Y) (RPy e)) as [[code|code]|]; [|apply HT|reflexivity].
    destruct (cfg_ignore_missing c); [reflexivity|apply HT].
  Qed.

  Lemma deliver_equiv : forall X Y c ds w ff exn acc, exec_view X = exec_view Y -> cfg_broadcast c = false ->
    (forall w p, send X w p = send Y w p) ->
    deliver X c w ds ff exn acc = deliver Y c w ds ff exn acc.
  Proof.
    induction ds as [|[f r] t IH]; intros; cbn; [reflexivity|].
    rewrite (callback_equiv X Y) by assumption.
    destruct (callback Y c w r); [apply IH; assumption|reflexivity].
  Qed.

  Lemma generated_fargs : forall fe c w e, cfg_broadcast c = false ->
    fargs_for (fc_loop code fe) c w e = {| fa_units := e_slaves _ _ _ _ E w; fa_single := e_single _ _ _ _ E w |}.
  Proof.
    intros fe c w e Hc. unfold Frontends.fargs_for, Frontends.units_for, prep_units. rewrite Hc.
    destruct fe, e; reflexivity.
  Qed.

  Lemma generated_reached : forall fe w, e_listen_only _ _ _ _ E w = false -> framer_reached (fc_loop code fe) w.
  Proof.
    intros fe w Hl. split; [destruct fe; reflexivity|]. split; [|destruct fe; discriminate].
    rewrite Hl. apply Bool.andb_false_r.
  Qed.

  Lemma data_core_equiv : forall a b c w f bs, cfg_broadcast c = false ->
    (forall w p, send (fc_exec code a) w p = send (fc_exec code b) w p) ->
    data_core a c w f bs = data_core b c w f bs.
  Proof.
    intros a b c w f bs Hc Hs. unfold Frontends_proofs.data_core.
    rewrite !generated_fargs by assumption.
    destruct (e_recv _ _ _ _ E _ f bs) as [[ds ff] exn].
    apply deliver_equiv; [rewrite !generated_exec_agree; reflexivity|assumption..].
  Qed.

  Lemma step_equiv : forall a b c w cs bs, stream_fe a -> stream_fe b -> common_features c -> bs <> [] ->
    let ra := serve_step a c w cs (IData bs) in
    let rb := serve_step b c w cs (IData bs) in
    fst (fst (fst ra)) = fst (fst (fst rb)) /\ snd (fst ra) = snd (fst rb) /\
    (snd ra = Continue -> ra = rb).
  Proof.
    intros a b c w cs bs Ha Hb Hc Hbs.
    apply step_agree; try apply generated_reached; try apply Hc; [assumption| |apply raise_not_continue].
    apply data_core_equiv; [apply Hc|]. intros w1 p. apply stream_send_equiv; try assumption. apply Hc.
  Qed.

  (* a whole connection: as long as nothing is raised the three front-ends are the same function
     of (world, chunk list) *)
  Fixpoint clean (fe : frontend) (c : cfg) (w : World) (cs : connstate FS) (chunks : list bytes) : bool :=
    match chunks with
    | [] => true
    | b :: t => let '(w', cs', _, a) := serve_step fe c w cs (IData b) in
                action_eqb a Continue && clean fe c w' cs' t
    end.

  Lemma conn_equiv : forall a b c chunks w cs, stream_fe a -> stream_fe b -> common_features c ->
    Forall (fun bs => bs <> []) chunks -> clean a c w cs chunks = true ->
    run_conn a c w cs chunks = run_conn b c w cs chunks.
  Proof.
    intros a b c chunks. induction chunks as [|bs t IH]; intros w cs Ha Hb Hc Hne Hcl; [reflexivity|].
    inversion Hne as [|? ? Hbs Ht]; subst.
    destruct (step_equiv a b c w cs bs Ha Hb Hc Hbs) as (_ & _ & Heq).
    cbn [clean Frontends.run_conn] in *.
    destruct (serve_step a c w cs (IData bs)) as [[[w1 cs1] o1] a1].
    apply continue_and in Hcl. destruct Hcl as [-> Hcl].
    rewrite <- (Heq eq_refl). rewrite (IH w1 cs1) by assumption. reflexivity.
  Qed.

  (* a datagram of whole frames: from the initial framer state the framer raises nothing and is
     back in its initial state afterwards (nothing is left in the buffer) *)
  Definition whole_frames (bs : bytes) : Prop :=
    bs <> [] /\ forall fa, exists ds, e_recv _ _ _ _ E fa finit bs = (ds, finit, None).
  (* an empty read does nothing to an empty framer *)
  Definition empty_read_idle : Prop := forall fa, e_recv _ _ _ _ E fa finit [] = ([], finit, None).

  Lemma deliver_none : forall X c ds w ff exn acc w' f' o,
    deliver X c w ds ff exn acc = (w', f', o, None) -> f' = ff /\ exn = None.
  Proof.
    induction ds as [|[f r] t IH]; intros w ff exn acc w' f' o H; cbn in H.
    - inversion H; subst. split; reflexivity.
    - destruct (callback X c w r); [eapply IH; exact H|discriminate].
  Qed.

  (* the threaded and the asyncio datagram handler prepare the unit list alike and run identical
     execute skeletons: their framer call and deliveries are the same term, broadcast or not *)
  Lemma dgram_core_same : forall c w f bs, data_core SyncUdp c w f bs = data_core AioUdp c w f bs.
  Proof. reflexivity. Qed.

  Lemma dgram_reached : forall fe w, fe = SyncUdp \/ fe = AioUdp -> framer_reached (fc_loop code fe) w.
  Proof. intros fe w [->| ->]; repeat split; discriminate. Qed.

  Lemma aio_dgram_step : forall c w bs, whole_frames bs ->
    snd (serve_step AioUdp c w fresh_conn (IData bs)) = Continue ->
    exists w' o, serve_step AioUdp c w fresh_conn (IData bs) = (w', fresh_conn, o, Continue) /\
                 data_core AioUdp c w finit bs = (w', finit, o, None).
  Proof.
    intros c w bs [Hne Hw] Ha. pose proof (is_empty_false bs Hne) as He.
    rewrite serve_step_data in * by (rewrite ?He; auto using dgram_reached). unfold data_step in *.
    rewrite He in *. change (cs_f fresh_conn) with finit in *.
    destruct (data_core AioUdp c w finit bs) as [[[w' f'] o] [e|]] eqn:Hd; cbn [snd option_map] in Ha.
    - destruct (raise_not_continue AioUdp e Ha).
    - exists w', o. unfold Frontends_proofs.data_core in Hd. rewrite He in Hd.
      destruct (Hw (fargs_for (fc_loop code AioUdp) c w false)) as [ds Hr]. rewrite Hr in Hd.
      destruct (deliver_none _ _ _ _ _ _ _ _ _ _ Hd) as [-> _]. split; reflexivity.
  Qed.

  (* threaded: the same datagram; the handler then reads the None it left in self.request *)
  Lemma sync_dgram_activation : forall c w bs w' o, bs <> [] -> empty_read_idle ->
    data_core AioUdp c w finit bs = (w', finit, o, None) ->
    exists cs', serve_activation SyncUdp c w fresh_conn (IData bs) = (w', cs', o, Stop).
  Proof.
    intros c w bs w' o Hne Hidle Hd. pose proof (is_empty_false bs Hne) as He.
    unfold Frontends.serve_activation. change (ls_site (fc_loop code SyncUdp)) with PerDatagram. cbv iota.
    rewrite serve_step_data by (rewrite ?He; auto using dgram_reached). unfold data_step.
    rewrite dgram_core_same. change (cs_f fresh_conn) with finit. rewrite Hd, He. cbn [option_map].
    (* nothing raised on non-empty data: the ladder is not consulted *)
    change (step_action (fc_loop code SyncUdp) false None) with Continue. cbn [continues].
    rewrite serve_step_data by auto using dgram_reached.
    unfold data_step, Frontends_proofs.data_core. cbn [cs_f Frontends.apply_action]. rewrite Hidle.
    cbn [Frontends.deliver]. rewrite app_nil_r. eexists. reflexivity.
  Qed.

  Definition dgram_events (dgs : list (nat * bytes)) : list (nat * input) :=
    map (fun kb => (fst kb, IData (snd kb))) dgs.

  Fixpoint dgram_clean (c : cfg) (w : World) (dgs : list (nat * bytes)) : bool :=
    match dgs with
    | [] => true
    | (_, b) :: t => let '(w', _, _, a) := serve_step AioUdp c w fresh_conn (IData b) in
                     action_eqb a Continue && dgram_clean c w' t
    end.

  Definition outs_of (lg : list (logrec World)) : list (nat * list bytes) :=
    map (fun r => (lg_conn _ r, lg_out _ r)) lg.

  Lemma dgram_event : forall c sva svs k b, empty_read_idle -> whole_frames b ->
    sv_world sva = sv_world svs -> sv_shared sva = fresh_conn ->
    snd (serve_step AioUdp c (sv_world sva) fresh_conn (IData b)) = Continue ->
    exists w' o,
      serve_step AioUdp c (sv_world sva) fresh_conn (IData b) = (w', fresh_conn, o, Continue) /\
      serve_event AioUdp c sva k (IData b) =
        ({| sv_world := w'; sv_conns := sv_conns sva; sv_shared := fresh_conn |}, o, Continue) /\
      serve_event SyncUdp c svs k (IData b) =
        ({| sv_world := w'; sv_conns := sv_conns svs; sv_shared := sv_shared svs |}, o, Stop).
  Proof.
    intros c sva svs k b Hidle Hwb Hw Hsh Ha.
    destruct (aio_dgram_step c (sv_world sva) b Hwb Ha) as (w' & o & Hst & Hd).
    exists w', o. split; [exact Hst|].
    rewrite (serve_event_shared _ _ _ _ code E AioUdp), (serve_event_dgram _ _ _ _ code E SyncUdp) by reflexivity.
    rewrite Hsh, <- Hw, Hst. split; [reflexivity|].
    destruct (sync_dgram_activation c (sv_world sva) b w' o (proj1 Hwb) Hidle Hd) as [cs' ->]. reflexivity.
  Qed.

  Lemma dgram_equiv : forall c dgs sva svs,
    empty_read_idle ->
    Forall (fun kb => whole_frames (snd kb)) dgs ->
    sv_world sva = sv_world svs -> sv_shared sva = fresh_conn ->
    dgram_clean c (sv_world sva) dgs = true ->
    outs_of (snd (run_events SyncUdp c svs (dgram_events dgs))) =
    outs_of (snd (run_events AioUdp c sva (dgram_events dgs))) /\
    sv_world (fst (run_events SyncUdp c svs (dgram_events dgs))) =
    sv_world (fst (run_events AioUdp c sva (dgram_events dgs))).
  Proof.
    intros c dgs. induction dgs as [|[k b] t IH]; intros sva svs Hidle Hall Hw Hsh Hcl.
    - cbn. split; [reflexivity|symmetry; exact Hw].
    - inversion Hall as [|? ? Hwb Ht]; subst. cbn [snd] in Hwb.
      cbn [dgram_clean dgram_events map fst snd Frontends.run_events] in *. fold (dgram_events t).
      destruct (dgram_event c sva svs k b Hidle Hwb Hw Hsh) as (w' & o & Hst & -> & ->).
      { destruct (serve_step AioUdp c (sv_world sva) fresh_conn (IData b)) as [[[w1 cs1] o1] a1].
        apply continue_and in Hcl. apply Hcl. }
      rewrite Hst in Hcl. cbn [action_eqb andb] in Hcl.
      specialize (IH {| sv_world := w'; sv_conns := sv_conns sva; sv_shared := fresh_conn |}
                     {| sv_world := w'; sv_conns := sv_conns svs; sv_shared := sv_shared svs |}
                     Hidle Ht eq_refl eq_refl Hcl).
      destruct (run_events SyncUdp c _ (dgram_events t)) as [sfs lgs].
      destruct (run_events AioUdp c _ (dgram_events t)) as [sfa lga].
      cbn [fst snd outs_of map lg_conn lg_out] in *. destruct IH as [IH1 IH2].
      split; [f_equal; exact IH1|exact IH2].
  Qed.

  Lemma tw_dgram_step : forall c w cs bs, common_features c -> always_responds -> bs <> [] ->
    let ra := serve_step TwUdp c w cs (IData bs) in
    let rb := serve_step AioUdp c w cs (IData bs) in
    fst (fst (fst ra)) = fst (fst (fst rb)) /\ snd (fst ra) = snd (fst rb) /\
    (snd rb = Continue -> ra = rb).
  Proof.
    intros c w cs bs Hc Hr Hne.
    destruct (step_agree _ _ _ _ code E AioUdp TwUdp c w cs bs Hne) as (H1 & H2 & H3).
    1-2: apply generated_reached, Hc.
    - apply data_core_equiv; [apply Hc|]. intros w1 p. apply send_equiv; [apply Hc|right; apply Hr].
    - apply raise_not_continue.
    - cbn zeta. split; [symmetry; exact H1|]. split; [symmetry; exact H2|].
      intros H. symmetry. exact (H3 H).
  Qed.

  (* no datagram of the history makes the asyncio handler see an exception *)
  Fixpoint events_clean (c : cfg) (sv : server FS World) (l : list (nat * bytes)) : bool :=
    match l with
    | [] => true
    | (k, b) :: t => let '(sv', _, a) := serve_event AioUdp c sv k (IData b) in
                     action_eqb a Continue && events_clean c sv' t
    end.

  Lemma tw_dgram_event : forall c sv k b, common_features c -> always_responds -> b <> [] ->
    snd (serve_event AioUdp c sv k (IData b)) = Continue ->
    serve_event TwUdp c sv k (IData b) = serve_event AioUdp c sv k (IData b).
  Proof.
    intros c sv k b Hc Hr Hb. rewrite !serve_event_shared by reflexivity.
    destruct (tw_dgram_step c (sv_world sv) (sv_shared sv) b Hc Hr Hb) as (_ & _ & Heq).
    destruct (serve_step AioUdp c (sv_world sv) (sv_shared sv) (IData b)) as [[[w1 cs1] o1] a1].
    intros Ha. rewrite (Heq Ha). reflexivity.
  Qed.

  Lemma tw_dgram_equiv : forall c dgs sv,
    common_features c -> always_responds ->
    Forall (fun kb => snd kb <> []) dgs ->
    events_clean c sv dgs = true ->
    run_events TwUdp c sv (dgram_events dgs) = run_events AioUdp c sv (dgram_events dgs).
  Proof.
    intros c dgs. induction dgs as [|[k b] t IH]; intros sv Hc Hr Hall Hcl; [reflexivity|].
    inversion Hall as [|? ? Hb Ht]; subst. cbn [snd] in Hb.
    cbn [events_clean dgram_events map fst snd Frontends.run_events] in *. fold (dgram_events t).
    pose proof (tw_dgram_event c sv k b Hc Hr Hb) as Hev.
    destruct (serve_event AioUdp c sv k (IData b)) as [[sv' o] a].
    apply continue_and in Hcl. destruct Hcl as [Ha Hcl].
    rewrite (Hev Ha), (IH sv' Hc Hr Ht Hcl). reflexivity.
  Qed.

End Equiv.
