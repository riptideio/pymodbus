(* ClientTcp_proofs.v — the abstract framer hypotheses of proofs/Client_proofs.v discharged for the concrete
   socket-framer model (ClientTcp.tcp_framer), from the lemmas of proofs/FrA_tcp_proofs.v / FrA_tcp_gate_proofs.v;
   the TCP transport script that serves an MBAP frame to _recv; that a two-phase _recv reads at most one frame; the
   conformant-reply theorem of the TCP client and the run that shows its hypotheses satisfiable. *)
From Coq Require Import ZifyBool.
From PM.theories Require Import Base Expr Struct FrBaseA FrTcp FrSpecA.
From PM.Generated Require Import GenFramerA GenClient.
From PM.proofs Require Import FrA_stream_proofs FrA_tcp_proofs FrA_tcp_gate_proofs.
(* Client last: unqualified cfg, zmem, t_recv are Client's; the FrA_* imports make lia split div/mod (zify_post_hook) *)
From PM.theories Require Import Client CorrClient ClientTcp.
From PM.proofs Require Import Client_proofs.
Open Scope list_scope.
Open Scope Z_scope.

(* the TCP transport that hands the frame to _recv: header + function code first, then the rest *)
Definition tcp_script (full : bool) (reply : bytes) : list tev :=
  if full then [Data reply] else [Data (firstn 8 reply); Data (skipn 8 reply)].

Lemma serves_tcp tid pid uid fcb data full :
  Z.of_nat (length data) + 2 < 65536 ->
  (128 <= Z.of_N fcb -> length data = 1%nat) ->
  serves FTcp None full (spec_adu_tcp tid pid uid (fcb :: data)) (tcp_script full (spec_adu_tcp tid pid uid (fcb :: data))).
Proof.
  intros Hlen Hexc. set (adu := spec_adu_tcp tid pid uid (fcb :: data)). unfold tcp_script.
  destruct full; [apply serves_full; reflexivity|].
  rewrite <- (firstn_skipn 8 adu) at 1.
  apply (serves_split FTcp None (firstn 8 adu) (skipn 8 adu) (Z.of_N fcb)); try reflexivity.
  change (skipn 8 adu) with data. apply clip_all. unfold rest_size, zlen. cbn [g_err_threshold code].
  destruct (Z.of_N fcb <? 128) eqn:Hfc.
  - unfold nthb. cbn [adu spec_adu_tcp be16 app firstn nth length g_tcp_hsize g_min_size code].
    rewrite !Z2N.id by lia. lia.
  - rewrite (Hexc ltac:(lia)). cbn. lia.
Qed.

Lemma decode_data_tcp tid pid uid pdu : 0 <= uid -> (1 <= length pdu)%nat ->
  exists mb, decode_data 7 FTcp (spec_adu_tcp tid pid uid pdu) = Ok mb /\ mb_unit mb = Some uid.
Proof.
  intros Hu Hp. unfold decode_data, spec_adu_tcp. cbn [be16 app].
  destruct pdu as [|b t]; [cbn in Hp; lia|].
  unfold zlen. cbn [length]. replace (_ >? 7) with true by lia.
  eexists. split; [reflexivity|]. cbn [mb_unit]. unfold nthb. cbn [nth]. f_equal. lia.
Qed.

(* The TCP client reads at most one frame per two-phase _recv, so processIncomingPacket never "delivers and then
   raises" on what it is given.  [tcp_bounded]: behind the frame (7 + length field - 1 bytes) less than one more
   header; the 9 bytes of an exception read fit too *)
Definition lenf (bs : bytes) : Z := h_len (hdr_of (firstn 7 bs)).
Definition tcp_bounded (bs : bytes) : Prop :=
  (8 <= length bs)%nat /\ (2 <= lenf bs -> Z.of_nat (length bs) <= 7 + lenf bs - 1 + 7).
Definition one_frame (bs : bytes) : Prop := bs = [] \/ tcp_bounded bs.

Lemma lenf_8 b0 b1 b2 b3 b4 b5 b6 b7 rest :
  lenf (b0 :: b1 :: b2 :: b3 :: b4 :: b5 :: b6 :: b7 :: rest) = Z.of_N b4 * 256 + Z.of_N b5.
Proof.
  unfold lenf, hdr_of. cbn [firstn unpack_go fwidth skipn h_len].
  unfold unpack1, of_unsigned. cbn [fsigned andb rev app le_value]. lia.
Qed.

Lemma t_recv_len w n w' x : Client.t_recv w (Some n) = (w', Ok x) -> Z.of_nat (length x) <= Z.max 0 n.
Proof.
  intro H. apply t_recv_spec in H as (_ & _ & H). destruct (H x eq_refl) as [->|(d & _ & ->)]; cbn [clip length]; [lia|].
  rewrite firstn_length. lia.
Qed.

Lemma recv_model_tcp_bounded w exp w' bs :
  recv_model code FTcp w exp false = (w', Ok bs) -> tcp_bounded bs.
Proof.
  rewrite recv_model_eq. cbn [g_min_size code].
  destruct (Client.t_recv w (Some 8)) as [w1 [head|e]]; [|discriminate].
  destruct (negb (zlen head =? 8)) eqn:Hz; [discriminate|]. apply negb_false_iff, Z.eqb_eq in Hz. unfold zlen in Hz.
  destruct head as [|b0 [|b1 [|b2 [|b3 [|b4 [|b5 [|b6 [|b7 [|b8 t]]]]]]]]]; cbn [length] in Hz; try lia.
  cbn [func_code last]. unfold rest_size, nthb. cbn [nth g_err_threshold g_tcp_hsize g_min_size code].
  change (exception_length code FTcp) with 9.
  (* normal reply: the rest of the length field; exception reply: one byte *)
  destruct (Z.of_N b7 <? 128); destruct (Client.t_recv w1 _) as [w2 [rest|e]] eqn:H2; try discriminate.
  all: intro H; injection H as _ <-; apply t_recv_len in H2.
  all: split; [cbn [length]; lia|]. all: rewrite lenf_8; cbn [length]; lia.
Qed.

Lemma unit_cfg_accepts k u : spec_accepts k (unit_cfg u) u = true.
Proof. unfold spec_accepts. cbn [unit_cfg c_units FrBaseA.zmem existsb]. rewrite Z.eqb_refl, !orb_true_r. reflexivity. Qed.

Section Tcp.
Variable dec : bytes -> dres.
Notation floop := (t_loop base tcp dec).

Lemma loop_short units single f st : (0 < f)%nat -> (length (t_buf st) <= 7)%nat -> floop f units single st = (st, [], Done).
Proof.
  intros Hf H. destruct f as [|f]; [lia|]. cbn [t_loop]. rewrite ready_eq.
  replace (Z.of_nat (length (t_buf st)) >? 7) with false by lia. reflexivity.
Qed.

Lemma loop_iter units single f st : (7 < length (t_buf st))%nat ->
  let h := hdr_of (firstn 7 (t_buf st)) in
  let st1 := {| t_buf := t_buf st; t_hdr := h |} in
  floop (S f) units single st =
  if h_len h <? 2 then floop f units single {| t_buf := []; t_hdr := hdr0 |}
  else if Z.of_nat (length (t_buf st)) - 7 + 1 >=? h_len h then
    if single || FrBaseA.zmem 0 units || FrBaseA.zmem 255 units || FrBaseA.zmem (h_uid h) units then
      match dec (t_getframe tcp st1) with
      | DMsg fc => cons_d (t_deliv tcp (t_getframe tcp st1) h) (floop f units single (t_advance tcp st1))
      | DNone => (st1, [], Exc ModbusIOExc)
      | DRaise e => (st1, [], Exc e)
      end
    else floop f units single (t_advance tcp st1)
  else (st1, [], Done).
Proof.
  intros Hb h st1. cbn [t_loop]. rewrite ready_eq. replace (Z.of_nat (length (t_buf st)) >? 7) with true by lia.
  rewrite check_ready by exact Hb. cbv zeta. fold h. fold st1.
  destruct (h_len h <? 2) eqn:E2.
  - rewrite wait_eq, advance_eq. cbn [t_hdr h_len hdr0]. change (0 >=? 2) with false. rewrite reset_eq. reflexivity.
  - destruct (_ >=? h_len h).
    + rewrite validate_spec. cbn [t_hdr st1]. destruct (_ || _); [|reflexivity].
      unfold t_process. cbv beta iota zeta. destruct (dec (t_getframe tcp st1)); reflexivity.
    + rewrite wait_eq. cbn [t_hdr st1]. replace (h_len h >=? 2) with true by lia. reflexivity.
Qed.

Lemma tcp_reset_empties : reset_empties tstate (tcp_framer dec).
Proof. intro fs. reflexivity. Qed.

Lemma tcp_empty fs : f_nonempty (tcp_framer dec) fs = false -> t_buf fs = [].
Proof. cbn [tcp_framer f_nonempty]. destruct (t_buf fs); [reflexivity|discriminate]. Qed.

Lemma tcp_entry_empty st : t_buf (entry_fs tstate (tcp_framer dec) st) = [].
Proof. apply tcp_empty, entry_fs_empty, tcp_reset_empties. Qed.

Lemma tcp_conformant_frame u f :
  valid_frame KTcp dec (unit_cfg u) f ->
  conformant_frame tstate (tcp_framer dec) (spec_adu KTcp f) u (msg_of dec (spec_delivery KTcp f)).
Proof.
  intros Hv fs Hne. apply tcp_empty in Hne. cbn [tcp_framer f_process]. unfold FrTcp.t_recv. rewrite Hne. cbn [app t_buf].
  pose proof (loop_frame dec _ _ (length (spec_adu KTcp f)) f [] (t_hdr fs) (valid_good dec (unit_cfg u) f Hv)) as L.
  rewrite app_nil_r in L. rewrite L.
  rewrite loop_short by (rewrite ?adu_tcp_length; cbn [t_buf length]; lia). eexists. reflexivity.
Qed.

Lemma tcp_delivered fs resp u fs' ms ex m :
  t_buf fs = [] -> f_process (tcp_framer dec) fs resp u = (fs', ms, ex) -> In m ms ->
  exists d, m = msg_of dec d /\ (wfb resp = true -> tcp_justified resp d).
Proof.
  intros Hb H Hin. cbn [tcp_framer f_process] in H.
  destruct (FrTcp.t_recv base tcp dec (unit_cfg u) fs resp) as [[s2 ds] o] eqn:Hr.
  injection H as _ <- _. apply in_map_iff in Hin as (d & Hd & Hin).
  exists d. split; [symmetry; exact Hd|]. intro Hw.
  apply tcp_recv_gate in Hr; [|rewrite Hb; reflexivity|exact Hw].
  rewrite Hb, Forall_forall in Hr. apply Hr, Hin.
Qed.

Lemma tcp_delivered_justified fs resp u fs' ms ex m :
  t_buf fs = [] -> wfb resp = true ->
  f_process (tcp_framer dec) fs resp u = (fs', ms, ex) -> In m ms ->
  exists d, m = msg_of dec d /\ tcp_justified resp d.
Proof.
  intros Hb Hw H Hin. destruct (tcp_delivered fs resp u fs' ms ex m Hb H Hin) as (d & Hd & Hj).
  exists d. split; [exact Hd|exact (Hj Hw)].
Qed.

Lemma advance_length st1 : 2 <= h_len (t_hdr st1) ->
  length (t_buf (t_advance tcp st1)) = (length (t_buf st1) - Z.to_nat (7 + h_len (t_hdr st1) - 1))%nat.
Proof. intro Hl. rewrite advance_eq. cbn [t_buf]. rewrite pyfrom_nonneg by lia. apply skipn_length. Qed.

Lemma tcp_proc_clean_one_frame fs resp u fs' ms e :
  t_buf fs = [] -> one_frame resp -> f_process (tcp_framer dec) fs resp u = (fs', ms, Some e) -> ms = [].
Proof.
  intros Hb Hone H. cbn [tcp_framer f_process] in H.
  destruct (FrTcp.t_recv base tcp dec (unit_cfg u) fs resp) as [[s2 ds] o] eqn:Hr.
  injection H as _ <- Ho. unfold FrTcp.t_recv in Hr. rewrite Hb in Hr. cbn [app t_buf] in Hr.
  destruct Hone as [-> | (H8 & Hbound)].
  { rewrite loop_short in Hr by (cbn [t_buf length]; lia). injection Hr as _ <- _. reflexivity. }
  rewrite loop_iter in Hr by (cbn [t_buf]; lia). cbv zeta in Hr. cbn [t_buf] in Hr. fold (lenf resp) in Hr.
  destruct (lenf resp <? 2) eqn:E2.
  { rewrite loop_short in Hr by (cbn [t_buf length]; lia). injection Hr as _ <- _. reflexivity. }
  destruct (_ >=? lenf resp); [|injection Hr as _ _ <-; discriminate].
  set (st1 := {| t_buf := resp; t_hdr := hdr_of (firstn 7 resp) |}) in Hr.
  (* what is left behind the frame is shorter than a header *)
  assert (Hadv : (length (t_buf (t_advance tcp st1)) <= 7)%nat).
  { rewrite advance_length; cbn [t_buf t_hdr st1]; fold (lenf resp); [|lia]. specialize (Hbound ltac:(lia)). lia. }
  destruct (_ || _); [destruct (dec (t_getframe tcp st1)) as [fc| |e0] eqn:Hd|].
  - rewrite loop_short in Hr by (exact Hadv || lia). injection Hr as _ _ <-. discriminate.
  - injection Hr as _ <- _. reflexivity.
  - injection Hr as _ <- _. reflexivity.
  - rewrite loop_short in Hr by (exact Hadv || lia). injection Hr as _ _ <-. discriminate.
Qed.

Lemma conformant_reply_tcp c st rq f fcb data rest :
  c_framing c = FTcp -> c_udp c = false -> s_tx st = [] -> c_bcast c && (r_unit rq =? 0) = false ->
  0 <= retries_given c ->
  f_uid f = r_unit rq -> valid_frame KTcp dec (unit_cfg (r_unit rq)) f ->
  f_pdu f = fcb :: data -> (128 <= Z.of_N fcb -> length data = 1%nat) ->
  exists st' o,
    execute code tstate (tcp_framer dec) c st rq
      ((if s_conn st then [] else [Nothing])
         ++ attempt true (tcp_script (full_of tstate c st rq) (spec_adu KTcp f)) ++ rest) = (st', o)
    /\ o_res o = RReply (msg_of dec (spec_delivery KTcp f)) /\ s_tx st' = [] /\ s_tid st' = next_tid code (s_tid st).
Proof.
  intros Hfr Hudp Htx Hb Hr Hu Hv Hpdu Hexc.
  pose proof Hv as ((_ & _ & Huid & Hl1 & Hl2) & _ & _).
  assert (Hexp : exp_of c rq = None).
  { unfold exp_of. rewrite Hudp. unfold expected_length. rewrite Hfr. reflexivity. }
  apply (execute_conformant_reply tstate (tcp_framer dec) c st rq (spec_adu KTcp f) _ rest _ Htx Hb Hr).
  - apply tcp_adu_ne.
  - intros _. rewrite Hfr. cbn [spec_adu]. rewrite <- Hu. apply decode_data_tcp; [apply Huid|exact Hl1].
  - exact tcp_reset_empties.
  - apply tcp_conformant_frame, Hv.
  - rewrite Hfr, Hexp. cbn [spec_adu]. rewrite Hpdu.
    apply serves_tcp; [|exact Hexc]. rewrite Hpdu in Hl2. cbn [length] in Hl2. lia.
Qed.

End Tcp.

Section TcpTotal.
Variable dec : bytes -> dres.
(* ClientDecoder.decode catches every exception and returns None (shape-checked by gen/gen_client.py) *)
Hypothesis dec_total : forall p e, dec p <> DRaise e.

Lemma tcp_loop_facts units single : forall fuel st st' ds o,
  (length (t_buf st) < fuel)%nat -> t_loop base tcp dec fuel units single st = (st', ds, o) ->
  o <> OutOfFuel /\ (forall e, o = Exc e -> e = ModbusIOExc) /\ (length (t_buf st') <= length (t_buf st))%nat.
Proof.
  induction fuel as [|f IH]; intros st st' ds o Hf H; [lia|].
  destruct (Nat.le_gt_cases (length (t_buf st)) 7) as [Hs|Hs].
  { rewrite loop_short in H by lia. injection H as <- <- <-. repeat split; try discriminate; lia. }
  rewrite loop_iter in H by exact Hs. cbv zeta in H. set (h := hdr_of _) in H. set (st1 := {| t_buf := t_buf st; t_hdr := h |}) in H.
  destruct (h_len h <? 2) eqn:E2.
  { rewrite loop_short in H by (cbn [t_buf length]; lia). injection H as <- <- <-.
    repeat split; try discriminate. apply Nat.le_0_l. }
  destruct (_ >=? h_len h); [|injection H as <- <- <-; repeat split; try discriminate; cbn [st1 t_buf]; lia].
  assert (Hadv : (length (t_buf (t_advance tcp st1)) < length (t_buf st))%nat)
    by (rewrite advance_length; cbn [st1 t_hdr t_buf]; lia).
  destruct (_ || _); [destruct (dec (t_getframe tcp st1)) as [fc| |e] eqn:Hd|].
  - destruct (t_loop base tcp dec f units single (t_advance tcp st1)) as [[s2 d2] o2] eqn:Er.
    injection H as <- <- <-. apply IH in Er as (A & B & Cc); [|lia]. repeat split; try assumption. lia.
  - injection H as <- <- <-. repeat split; try discriminate; [|cbn [st1 t_buf]; lia].
    intros e He. injection He as <-. reflexivity.
  - exfalso. eapply dec_total, Hd.
  - apply IH in H as (A & B & Cc); [|lia]. repeat split; try assumption. lia.
Qed.

Lemma tcp_recv_facts c st data st' ds o :
  FrTcp.t_recv base tcp dec c st data = (st', ds, o) ->
  o <> OutOfFuel /\ (forall e, o = Exc e -> e = ModbusIOExc).
Proof.
  unfold FrTcp.t_recv. intro H. apply tcp_loop_facts in H as (A & B & _); [|cbn [t_buf]; lia]. split; assumption.
Qed.

Lemma tcp_framer_raises_io : framer_raises_io tstate (tcp_framer dec).
Proof.
  intros fs d u fs' ms e H. cbn [tcp_framer f_process] in H.
  destruct (FrTcp.t_recv base tcp dec (unit_cfg u) fs d) as [[s2 ds] o] eqn:Hr.
  apply tcp_recv_facts in Hr as (A & B). injection H as _ _ H.
  destruct o; cbn [exc_of] in H; [discriminate|injection H as <-; apply B; reflexivity|contradiction].
Qed.
End TcpTotal.

Definition demo_dec (p : bytes) : dres := match p with [] => DNone | b :: _ => DMsg (Z.of_N b) end.
Definition demo_frame : frame := {| f_tid := 78; f_pid := 0; f_uid := 5; f_pdu := [3; 2; 0; 7]%N |}.
Definition cfg_tcp_demo : Client.cfg :=
  {| c_framing := FTcp; c_udp := false; c_retries_kw := Some 1; c_roe := true; c_roi := true; c_bcast := false |}.

Lemma tcp_example :
  exists st' o,
    execute code tstate (tcp_framer demo_dec) cfg_tcp_demo (Build_cstate 65535 [] (t_init tcp) [] false) rq_rh
      ([Nothing] ++ attempt true (tcp_script false (spec_adu KTcp demo_frame)) ++ []) = (st', o)
    /\ o_res o = RReply (msg_of demo_dec (spec_delivery KTcp demo_frame)) /\ s_tx st' = [] /\ s_tid st' = 0.
Proof.
  destruct (conformant_reply_tcp demo_dec cfg_tcp_demo (Build_cstate 65535 [] (t_init tcp) [] false) rq_rh
              demo_frame 3%N [2; 0; 7]%N []) as (st' & o & A & B & Cc & D); try reflexivity.
  - cbn; lia.
  - repeat split; cbn; lia.
  - cbn. lia.
  - exists st', o. repeat split; assumption.
Qed.
