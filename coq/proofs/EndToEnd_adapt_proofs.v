(* Adapter lemmas between the PDU codec (C01), execution (C04) and framing (C03): each says how two published
   component theorems fit together (which is why this layer requires Props/ files; see docs/C09_e2e.md).
   A request message decoded by ServerDecoder yields, through [req_of_obj], the attribute record that
   ExecView.decode_attrs assigns to its wire fields — a record hand-modelled in the C04 development, which ties
   it to the code by correspondence only; a response whose spec view is s becomes, through [obj_of_rsp], an
   object whose C01 abstraction is the spec message of s; py_pdu and t_build compose to the specified MBAP ADU. *)
From PM.theories Require Import Base Expr FrSpecA PduSpec Pdu CorrPdu Store Exec ExecSpec ExecView Server EndToEnd CorrE2E.
From PM.Generated Require GenExec.
From PM.proofs Require Import Base_proofs Pdu_bits_proofs Pdu_proofs Pdu_dec1_proofs Pdu_dec2_proofs ExecOther_proofs.
From PM.proofs Require Pdu_size_proofs.
From PM.Props Require C01 C03_tcpascii.
From Coq Require Import ZifyBool.
Open Scope string_scope.
Open Scope list_scope.
Open Scope Z_scope.
(* lia must see / and mod; importing ZifyBool resets the hook *)
Ltac Zify.zify_post_hook ::= Z.to_euclidean_division_equations.

Lemma u16_word v : is_u16 v = true -> zbytes (u16 v) = [v / 256; v mod 256].
Proof. intros H. unfold is_u16 in H. unfold u16, zbytes. cbn [map]. rewrite !Z2N.id by lia. reflexivity. Qed.

Lemma take_words_words rs : all_u16 rs = true ->
  take_words (length rs) (zbytes (words rs)) = Ok rs.
Proof.
  induction rs as [|v t IH]; intros H; [reflexivity|].
  cbn [all_u16 forallb] in H. apply andb_true_iff in H as [Hv Ht].
  change (words (v :: t)) with (u16 v ++ words t). unfold zbytes in *. rewrite map_app. fold (zbytes (u16 v)).
  rewrite (u16_word v Hv). cbn [app length take_words]. rewrite (IH Ht). cbn [bind]. f_equal. f_equal.
  unfold is_u16 in Hv. lia.
Qed.

Lemma bits_of_byte_N b : bits_of_byte (Z.of_N b) = map b2z (byte_bits b).
Proof.
  unfold bits_of_byte, byte_bits. cbn [map].
  rewrite !Z.testbit_of_N'; try lia.
  change (Z.to_N 0) with 0%N; change (Z.to_N 1) with 1%N; change (Z.to_N 2) with 2%N; change (Z.to_N 3) with 3%N;
  change (Z.to_N 4) with 4%N; change (Z.to_N 5) with 5%N; change (Z.to_N 6) with 6%N; change (Z.to_N 7) with 7%N.
  repeat (f_equal; [destruct (N.testbit b _); reflexivity|]). reflexivity.
Qed.

Lemma bits_of_bytes_N bs : bits_of_bytes (zbytes bs) = map b2z (spec_unpack_bits bs).
Proof.
  induction bs as [|b t IH]; [reflexivity|].
  unfold bits_of_bytes, zbytes, spec_unpack_bits in *. cbn [map flat_map]. rewrite map_app, <- IH, bits_of_byte_N. reflexivity.
Qed.

Lemma upto_pad_firstn bits a : bits_upto_pad bits a = true -> firstn (length bits) a = bits.
Proof.
  revert a. induction bits as [|x t IH]; intros a H; [reflexivity|].
  destruct a as [|y a']; cbn [bits_upto_pad] in H; [discriminate|].
  apply andb_true_iff in H as [Hx Ht]. cbn [length firstn]. rewrite (IH _ Ht).
  unfold beqb in Hx. apply Bool.eqb_prop in Hx. now subst.
Qed.

Lemma coil_data cs :
  firstn (Z.to_nat (len cs)) (bits_of_bytes (zbytes (spec_pack_bits cs))) = map b2z cs.
Proof.
  unfold len. rewrite Nat2Z.id, bits_of_bytes_N, firstn_map.
  now rewrite (upto_pad_firstn cs _ (unpack_pack_upto_pad cs)).
Qed.

Lemma bl_eqb_eq a b : list_eqb beqb a b = true -> a = b.
Proof. apply list_eqb_eq. exact Bool.eqb_prop. Qed.

Lemma attrs_wregs a rs : all_u16 rs = true ->
  decode_attrs (WWriteRegs a (len rs) (2 * len rs) (zbytes (words rs))) =
  Ok (mk_req 16 a (zlen rs) 0 (2 * zlen rs) 0 0 0 0 0 0 0 rs []).
Proof.
  intros H. unfold decode_attrs, len. rewrite Nat2Z.id, take_words_words by assumption. reflexivity.
Qed.

Lemma attrs_rwm ra rq wa ws : all_u16 ws = true ->
  decode_attrs (WRWM ra rq wa (len ws) (2 * len ws) (zbytes (words ws))) =
  Ok (mk_req 23 0 0 0 0 0 0 ra rq wa (zlen ws) (2 * zlen ws) [] ws).
Proof.
  intros H. unfold decode_attrs, len.
  replace (Z.to_nat ((2 * Z.of_nat (length ws) + 1) / 2)) with (length ws) by lia.
  rewrite take_words_words by assumption. reflexivity.
Qed.

Definition data_request (m : msg) : Prop := exists w, wreq_of_msg m = Some w.

Theorem decode_request m w : wreq_of_msg m = Some w -> spec_wf m = true ->
  exists o r, py_decode true (spec_pdu m) = Ok o /\ obj_fc o = Ok (wfc w) /\
              req_of_obj o = Some r /\ decode_attrs w = Ok r.
Proof.
  intros Hw Hwf. exists (obj_of_msg m).
  assert (Hdec : py_decode true (spec_pdu m) = Ok (obj_of_msg m))
    by (destruct m; try discriminate Hw; exact (decode_spec _ Hwf eq_refl)).
  destruct m; try discriminate Hw; injection Hw as <-; cbn [spec_wf] in Hwf; split_andb Hwf.
  (* the ten kinds: function code and attribute record of [obj_of_msg m] are read off *)
  all: eexists; split; [exact Hdec|]; split; [reflexivity|]; split; [reflexivity|].
  (* ... and [decode_attrs] computes the same record, outright for FC 1-4, 6, 22 *)
  all: cbn [decode_attrs]; try reflexivity.
  - (* FC 5 *) now destruct on.
  - (* FC 15 *) now rewrite coil_data.
  - (* FC 16 *) now apply attrs_wregs.
  - (* FC 23 *) now apply attrs_rwm.
Qed.

(* A PDU whose function code is not in ServerDecoder's table decodes to IllegalFunctionRequest; its execute()
   attributes are req0 fc = ExecView.decode_attrs (WOther fc). *)
Definition unassigned (fc : Z) : bool := negb (existsb (Z.eqb fc) (x_known_fcs GenExec.code)).

(* every code [spec_request_class] tests is one of the known function codes *)
Lemma unassigned_class fc : unassigned fc = true -> spec_request_class fc = None.
Proof.
  intros H. unfold unassigned in H. apply negb_true_iff in H. unfold spec_request_class.
  repeat match goal with
         | |- context [if ?x =? ?k then _ else _] =>
             destruct (Z.eqb_spec x k) as [->|_]; [vm_compute in H; discriminate H|]
         end.
  reflexivity.
Qed.

Theorem decode_unassigned fc rest : 0 <= fc -> unassigned fc = true ->
  py_decode true (Z.to_N fc :: rest) = Ok (OIllegal fc).
Proof.
  intros H0 Hu. unfold py_decode, py_decode_server. cbn [data0 bind]. rewrite Z2N.id by exact H0.
  rewrite C01.C01_dispatch_server, (unassigned_class fc Hu). reflexivity.
Qed.

(* a request body of the proved domain with its data-model form (252: a PDU has at most 253 bytes) *)
Definition body_ok (b : sreq) (w : wreq) : Prop :=
  match b with
  | QMsg m => wreq_of_msg m = Some w /\ spec_wf m = true
  | QRaw fc rest => w = WOther fc /\ 1 <= fc < 128 /\ unassigned fc = true /\ (length rest <= 252)%nat
  end.

Lemma body_wreq b w : body_ok b w -> wreq_of b = Some w.
Proof. destruct b; cbn [body_ok wreq_of]; [tauto|]. intros (-> & _). reflexivity. Qed.

Theorem decode_body b w : body_ok b w ->
  exists o r, py_decode true (sreq_pdu b) = Ok o /\ obj_fc o = Ok (wfc w) /\
              req_of_obj o = Some r /\ decode_attrs w = Ok r.
Proof.
  destruct b as [m|fc rest]; cbn [body_ok sreq_pdu].
  - intros [Hw Hwf]. exact (decode_request m w Hw Hwf).
  - intros (-> & Hfc & Hu & _). exists (OIllegal fc), (req0 fc).
    split; [apply decode_unassigned; [lia|exact Hu]|]. repeat split; reflexivity.
Qed.

Lemma abs_intro o m : abs_raw o = Some m -> spec_wf m = true -> CorrPdu.abs o = Some m.
Proof. intros H1 H2. unfold CorrPdu.abs. now rewrite H1, H2. Qed.

Definition exc_code_of (ro : obj) : option Z := match ro with OExc _ _ c => Some c | _ => None end.
Definition sexc_code (s : srsp) : option Z := match s with SExc _ c => Some c | _ => None end.

Theorem response_object o s :
  view GenExec.code o = Some s -> spec_wf (spec_response_msg s) = true ->
  exists ro, obj_of_rsp o = Some ro /\ CorrPdu.abs ro = Some (spec_response_msg s) /\
             mem_cls (class_of ro) conforming_encode = true /\ exc_code_of ro = sexc_code s.
Proof.
  intros H Hwf. destruct o as [cls args|fc code].
  2: { cbn in H. injection H as <-. eexists. split; [reflexivity|]. split; [|split; reflexivity].
       apply abs_intro; [|exact Hwf]. cbn [abs_raw spec_response_msg].
       replace (fc =? fc - 128 + 128) with true by lia. reflexivity. }
  (* the class is a key of the generated response table; a failure below means a class of
     [x_resp_fc GenExec.code] without a branch in [obj_of_rsp] *)
  unfold view in H. destruct (Store.assoc_str (x_resp_fc GenExec.code) cls) as [fc|] eqn:E; [|discriminate H].
  apply assoc_str_in in E. cbn [x_resp_fc GenExec.code In] in E.
  (* [view] accepts three argument shapes: one list (reads), two numbers (echoes), three numbers (mask write) *)
  destruct args as [|[z|l] [|[z0|l0] [|[z1|l1] [|? ?]]]]; try discriminate H.
  (* for each shape, walk the ten rows: the function code of a row either fails the test of [view] for this
     shape, or fixes the class and the spec response *)
  all: repeat (destruct E as [E|E]; [injection E as Ec <-; try discriminate H; subst cls; injection H as <-|]);
       try contradiction.
  (* the ten surviving (class, shape) pairs: [obj_of_rsp] builds the object whose abstraction is the message *)
  all: eexists; split; [reflexivity|]; split; [apply abs_intro; [reflexivity|exact Hwf]|]; split; reflexivity.
Qed.

Lemma response_pdu_length s : spec_wf (spec_response_msg s) = true ->
  (length (spec_pdu (spec_response_msg s)) <= 300)%nat.
Proof.
  intros Hwf. assert (Hb : Pdu_size_proofs.byte_counted (spec_response_msg s) = true)
    by (destruct s; cbn [spec_response_msg]; repeat destruct (_ =? _); reflexivity).
  pose proof (C01.C01_pdu_wf_bound _ Hwf Hb) as Hl. unfold PduSpec.len in Hl. lia.
Qed.

(* needed by the serial framings, whose builders hex-encode or checksum the payload *)
Lemma u16_wfb v : is_u16 v = true -> wfb (u16 v) = true.
Proof. intros H. unfold is_u16 in H. unfold u16, wfb, byteb. cbn [forallb]. lia. Qed.
Lemma u8_wfb v : is_u8 v = true -> wfb (u8 v) = true.
Proof. intros H. unfold is_u8 in H. unfold u8, wfb, byteb. cbn [forallb]. lia. Qed.

Lemma response_pdu_wfb s : spec_wf (spec_response_msg s) = true ->
  wfb (spec_pdu (spec_response_msg s)) = true.
Proof.
  intros Hwf. destruct s as [fc vals|fc a v|fc a q|a am om|fc code]; cbn [spec_response_msg] in *;
    repeat destruct (_ =? _); cbn [spec_wf spec_pdu] in *; split_andb Hwf;
    rewrite ?wfb_app, ?u16_wfb, ?u8_wfb, ?spec_pack_bits_wfb, ?words_wfb by assumption; try reflexivity.
  - now destruct (coil_on v).
  - unfold is_u8 in *. unfold wfb, byteb. cbn [forallb]. lia.
Qed.

Lemma py_pdu_parts ro p : py_pdu ro = Ok p ->
  exists fc data, obj_fc ro = Ok fc /\ 0 <= fc < 256 /\ py_encode ro = Ok data /\ p = Z.to_N fc :: data.
Proof.
  unfold py_pdu. destruct (obj_fc ro) as [fc|e]; cbn [bind]; [|discriminate].
  unfold fc_byte. destruct ((0 <=? fc) && (fc <? 256)) eqn:E; cbn [bind]; [|discriminate].
  destruct (py_encode ro) as [data|e]; cbn [bind]; [|discriminate].
  intros H. injection H as <-. exists fc, data. repeat split; try reflexivity; lia.
Qed.

Theorem packet_spec o ro m :
  CorrPdu.abs ro = Some m -> mem_cls (class_of ro) conforming_encode = true ->
  0 <= o_tid o < 65536 -> 0 <= o_uid o < 256 -> (length (spec_pdu m) <= 300)%nat ->
  packet_of o ro = Ok (spec_adu_tcp (o_tid o) 0 (o_uid o) (spec_pdu m)).
Proof.
  intros Habs Hc Ht Hu Hl.
  destruct (py_pdu_parts ro _ (C01.C01_encode_conforms ro m Hc Habs)) as (fc & data & Hfc & Hr & Hd & Hp).
  unfold packet_of, dflt_pid. rewrite Hfc, Hd, Hp in *. cbn [bind length] in *.
  rewrite C03_tcpascii.C03_build_tcp; [reflexivity| | | | |]; lia.
Qed.
