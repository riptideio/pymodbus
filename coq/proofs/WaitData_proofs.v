(* WaitData_proofs.v — termination, bound and result of the serial client's polling loop. *)
From PM.theories Require Import Base WaitData.
Open Scope Z_scope.

Section AnyCode.
  Variable C : waitcode.
  Variable obs : nat -> Z.

  Lemma cond_expired : forall t el, t < el -> cond C (Some t) el = false.
  Proof. intros t el H. unfold cond. destruct (wc_le C); lia. Qed.

  (* m bounds the polls the clock still allows: after m more sleeps the timeout has passed *)
  Lemma wait_loop_bounded : forall m fuel t k el size more,
    (m < fuel)%nat -> t < el + Z.of_nat m * wc_sleep_us C ->
    exists s n, wait_loop C fuel (Some t) obs k el size more = Some (s, n) /\ (n <= k + m)%nat.
  Proof.
    induction m as [|m IH]; intros [|fuel] t k el size more Hf Ht; try lia; cbn [wait_loop].
    - rewrite cond_expired by lia. exists size, k. split; [reflexivity|lia].
    - destruct (cond C (Some t) el); cbn [negb]; [|exists size, k; split; [reflexivity|lia]].
      destruct (beval (wc_break C) more (obs k) size); [exists size, (S k); split; [reflexivity|lia]|].
      edestruct (IH fuel t (S k) (el + wc_sleep_us C)) as (s & n & H1 & H2); [lia|lia|].
      exists s, n. split; [exact H1|lia].
  Qed.

  Theorem wait_terminates : forall t, 0 < wc_sleep_us C -> 0 <= t ->
    exists s n, wait_for_data C (Z.to_nat (t / wc_sleep_us C + 2)) (Some t) obs = Some (s, n) /\
                Z.of_nat n <= max_polls C t.
  Proof.
    intros t Hs Ht. unfold max_polls.
    pose proof (Z.div_pos t _ Ht Hs) as Hq. pose proof (Z.mul_succ_div_gt t _ Hs) as Hm.
    destruct (wait_loop_bounded (Z.to_nat (t / wc_sleep_us C + 1)) (Z.to_nat (t / wc_sleep_us C + 2)) t 0 0 0 false)
      as (s & n & H1 & H2); [lia|lia|].
    exists s, n. split; [exact H1|lia].
  Qed.

  (* what may be handed to socket.read after k polls: 0 or a value in_waiting really showed *)
  Definition seen (k : nat) (s : Z) : Prop := s = 0 \/ exists j, (j < k)%nat /\ s = obs j.

  Lemma seen_S : forall k s, seen k s -> seen (S k) s.
  Proof. intros k s [H|[j [Hj H]]]; [left; exact H|right; exists j; split; [lia|exact H]]. Qed.

  Lemma wait_loop_observed : forall fuel timeout k el size more s n,
    wait_loop C fuel timeout obs k el size more = Some (s, n) -> seen k size -> seen n s.
  Proof.
    induction fuel as [|f IH]; intros timeout k el size more s n H Hs; [discriminate|].
    cbn [wait_loop] in H.
    destruct (negb (cond C timeout el)); [inversion H; subst; exact Hs|].
    destruct (beval (wc_break C) more (obs k) size); [inversion H; subst; exact (seen_S _ _ Hs)|].
    apply IH in H; [exact H|].
    destruct (beval (wc_update C) more (obs k) size); [right; exists k; split; [lia|reflexivity]|exact (seen_S _ _ Hs)].
  Qed.

  Theorem wait_result_observed : forall fuel timeout s n,
    wait_for_data C fuel timeout obs = Some (s, n) -> seen n s.
  Proof. intros fuel timeout s n H. apply (wait_loop_observed _ _ _ _ _ _ _ _ H). left. reflexivity. Qed.
End AnyCode.

Section Loop.
  Variable obs : nat -> Z.
  Local Notation C := spec_code.

  Lemma wait_loop_fuel_mono : forall fuel timeout k el size more r,
    wait_loop C fuel timeout obs k el size more = Some r ->
    forall fuel', (fuel <= fuel')%nat -> wait_loop C fuel' timeout obs k el size more = Some r.
  Proof.
    induction fuel as [|f IH]; intros timeout k el size more r H fuel' Hle; [discriminate|].
    destruct fuel' as [|f']; [lia|]. cbn [wait_loop] in *.
    destruct (negb (cond C timeout el)); [exact H|].
    destruct (beval (wc_break C) more (obs k) size); [exact H|].
    apply IH; [exact H | lia].
  Qed.
End Loop.

(* the reply of a healthy slave: first poll empty, then n bytes, then still n bytes; 20000 = two
   sleeps of wc_sleep_us, the third poll must still fall inside the timeout *)
Theorem wait_stable_data_returns : forall timeout n, 0 < n ->
  (match timeout with Some t => 20000 <= t | None => True end) ->
  wait_for_data spec_code 4 timeout (fun k => match k with O => 0 | _ => n end) = Some (n, 3%nat).
Proof.
  (* three iterations by hand: an empty poll, n bytes (update), n bytes again (break) *)
  intros timeout n Hn Ht. unfold wait_for_data. cbn [wait_loop].
  assert (Hc : forall e, 0 <= e <= 20000 -> cond spec_code timeout e = true).
  { intros e He. unfold cond. destruct timeout as [t|]; [|reflexivity]. cbn. lia. }
  rewrite (Hc 0) by lia. cbn [negb]. cbn [beval wc_break wc_update spec_code andb orb negb].
  replace (0 =? 0) with true by reflexivity. cbn [negb andb orb].
  cbn [wc_sleep_us spec_code]. rewrite (Hc (0 + 10000)) by lia. cbn [negb].
  replace (n =? 0) with false by lia. cbn [negb andb orb].
  rewrite (Hc (0 + 10000 + 10000)) by lia. cbn [negb].
  replace (n =? n) with true by lia. cbn [negb andb orb]. reflexivity.
Qed.
