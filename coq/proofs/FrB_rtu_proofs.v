(* FrB_rtu_proofs.v — the RTU framer model (theories/FrRtu.v) with the regenerated constants: the size rules of
   both decoder tables return at least 4; buildPacket is the spec ADU; equations for populateHeader / isFrameReady /
   checkFrame / _process; then what one call of processIncomingPacket does on any buffer (gate, termination,
   backlog of the request direction) and on valid traffic in any chunking. *)
From PM.theories Require Import Base Expr Struct FrBCode Crc FrBCommon FrRtu FrSpecB.
From PM.Generated Require Import GenFramerB.
From PM.proofs Require Import Base_proofs Struct_proofs Crc_proofs.
Open Scope list_scope.
Open Scope Z_scope.

Lemma zlen_app {A} (a b : list A) : zlen (a ++ b) = zlen a + zlen b.
Proof. unfold zlen. rewrite app_length. lia. Qed.

Lemma zlen_nonneg {A} (a : list A) : 0 <= zlen a.
Proof. unfold zlen. lia. Qed.

Lemma py_index_short {A} (l : list A) i : zlen l <= i -> py_index l i = Raise IndexError.
Proof.
  intros H. pose proof (zlen_nonneg l). rewrite py_index_nat by lia.
  replace (nth_error l (Z.to_nat i)) with (@None A); [reflexivity|].
  symmetry. apply nth_error_None. unfold zlen in H. lia.
Qed.

Lemma pyslice_nat {A} (l : list A) a b : 0 <= a -> 0 <= b ->
  pyslice l (Some a) (Some b) = firstn (Z.to_nat (b - a)) (skipn (Z.to_nat a) l).
Proof.
  intros Ha Hb. unfold pyslice, norm_idx. fold (zlen l).
  replace (a <? 0) with false by lia. replace (b <? 0) with false by lia.
  destruct (Z_lt_ge_dec a (zlen l)) as [Hl|Hl].
  - rewrite (Z.min_l a) by lia. destruct (Z_le_gt_dec b (zlen l)); [rewrite Z.min_l by lia; reflexivity|].
    rewrite !firstn_all2; [reflexivity| |]; rewrite skipn_length; unfold zlen in *; lia.
  - rewrite !skipn_all2 by (unfold zlen in *; lia). rewrite !firstn_nil. reflexivity.
Qed.

Lemma pyslice_from0 {A} (l : list A) hi : pyslice l None hi = pyslice l (Some 0) hi.
Proof. unfold pyslice, norm_idx. cbn [Z.ltb Z.compare]. rewrite Z.min_l by lia. reflexivity. Qed.

Lemma pyslice_to_end {A} (l : list A) lo : pyslice l lo None = pyslice l lo (Some (zlen l)).
Proof.
  unfold pyslice. fold (zlen l). replace (norm_idx (zlen l) (zlen l)) with (zlen l); [reflexivity|].
  unfold norm_idx. pose proof (zlen_nonneg l). replace (zlen l <? 0) with false by lia. symmetry. apply Z.min_id.
Qed.

Lemma pyslice_mid {A} (x y z : list A) a b :
  a = zlen x -> b = zlen x + zlen y ->
  pyslice (x ++ y ++ z) (Some a) (Some b) = y.
Proof.
  intros -> ->. pose proof (zlen_nonneg x). pose proof (zlen_nonneg y). rewrite pyslice_nat by lia.
  rewrite skipn_app_exact, firstn_app_exact by (unfold zlen; lia). reflexivity.
Qed.

Lemma pyslice_suffix {A} (x z : list A) a : a = zlen x -> pyslice (x ++ z) (Some a) None = z.
Proof.
  intros ->. pose proof (zlen_nonneg x). pose proof (zlen_nonneg z).
  rewrite pyslice_to_end, zlen_app, pyslice_nat by lia.
  rewrite skipn_app_exact by (unfold zlen; lia). apply firstn_all2. unfold zlen. lia.
Qed.

Lemma pyslice_from_len' {A} (l : list A) k : 0 <= k ->
  Z.of_nat (length (pyslice l (Some k) None)) = Z.max 0 (zlen l - k).
Proof.
  intros Hk. pose proof (zlen_nonneg l). rewrite pyslice_to_end, pyslice_nat by lia.
  rewrite firstn_length, skipn_length. unfold zlen. lia.
Qed.

Lemma parse_BB : parse_fmt ">BB" = Some (true, [FB; FB]). Proof. reflexivity. Qed.

Lemma parse_B : parse_fmt ">B" = Some (true, [FB]). Proof. reflexivity. Qed.

Lemma parse_H : parse_fmt ">H" = Some (true, [FH]). Proof. reflexivity. Qed.

Lemma pack_BB u f : (u < 256)%N -> (f < 256)%N -> pack_s ">BB" [Z.of_N u; Z.of_N f] = Ok [u; f].
Proof.
  intros Hu Hf. unfold pack_s. rewrite parse_BB. cbn [pack].
  unfold pack1. cbn [fsigned fwidth].
  assert (Hr : forall x, (x < 256)%N -> in_range FB (Z.of_N x) = true)
    by (intros x Hx; unfold in_range; cbn; lia).
  rewrite !Hr by assumption. cbn [bind].
  unfold to_unsigned. replace (Z.of_N u <? 0) with false by lia. replace (Z.of_N f <? 0) with false by lia.
  cbn [le_bytes rev app]. rewrite !Z.mod_small, !N2Z.id by lia. reflexivity.
Qed.

Lemma pack_H_swapped c : (c < 65536)%N ->
  pack_s ">H" [Z.of_N (swap16 c)] = Ok [crc_lo c; crc_hi c].
Proof.
  intros Hc. unfold pack_s. rewrite parse_H.
  rewrite swap16_bytes by exact Hc.
  pose proof (crc_lo_lt c). pose proof (crc_hi_lt c Hc).
  rewrite pack_H_be16 by lia. unfold be16.
  replace (Z.of_N (256 * crc_lo c + crc_hi c)) with (Z.of_N (crc_hi c) + Z.of_N (crc_lo c) * 256) by lia.
  rewrite Z.div_add, Z.mod_add, (Z.div_small (Z.of_N (crc_hi c))), Z.add_0_l, !Z.mod_small, !N2Z.id by lia. reflexivity.
Qed.

Lemma crc_val_eqb c0 c1 k : (c0 < 256)%N -> (c1 < 256)%N -> (k < 65536)%N ->
  (Z.of_N (swap16 k) =? Z.shiftl (zb c0) 8 + zb c1) = (k =? c0 + 256 * c1)%N.
Proof.
  intros H0 H1 Hk. rewrite swap16_bytes by exact Hk.
  pose proof (crc_lo_lt k). pose proof (crc_hi_lt k Hk). pose proof (crc_lo_hi k).
  rewrite Z.shiftl_mul_pow2 by lia. unfold zb. change (2 ^ 8) with 256. lia.
Qed.

(* closed forms of the generated data: they stop compiling when rtu_framer.py / utilities.py change a slice
   bound, a comparison or a constant *)

Lemma rc_ready_closed n :
  beval (env_of [("len(self._buffer)"%string, n); ("self._hsize"%string, rc_hsize rtu)]) (rc_ready rtu) = (n >? 1).
Proof. unfold beval. cbn. destruct (n >? 1); reflexivity. Qed.

Lemma rc_ready2_closed n l :
  beval (env_of [("len(self._buffer)"%string, n); ("self._header['len']"%string, l)]) (rc_ready2 rtu) = (n >=? l).
Proof. unfold beval. cbn. destruct (n >=? l); reflexivity. Qed.

Lemma rc_chk_data_hi_closed f : e1 "frame_size" f (rc_chk_data_hi rtu) = f - 2. Proof. reflexivity. Qed.
Lemma rc_chk_crc_lo_closed f : e1 "frame_size" f (rc_chk_crc_lo rtu) = f - 2. Proof. reflexivity. Qed.
Lemma rc_chk_crc_hi_closed f : e1 "frame_size" f (rc_chk_crc_hi rtu) = f. Proof. reflexivity. Qed.
Lemma rc_chk_crc_val_closed a b :
  eval (env_of [("byte2int(crc[0])"%string, a); ("byte2int(crc[1])"%string, b)]) (rc_chk_crc_val rtu) = Z.shiftl a 8 + b.
Proof. reflexivity. Qed.
Lemma rc_get_start_closed : e1 "self._hsize" (rc_hsize rtu) (rc_get_start rtu) = 1. Proof. reflexivity. Qed.
Lemma rc_get_end_closed l : e1 "self._header['len']" l (rc_get_end rtu) = l - 2. Proof. reflexivity. Qed.
Lemma rc_get_cond_closed e : beval (env_of [("end"%string, e)]) (rc_get_cond rtu) = (e >? 0).
Proof. unfold beval. cbn. destruct (e >? 0); reflexivity. Qed.
Lemma rc_adv_closed l : e1 "self._header['len']" l (rc_adv rtu) = l. Proof. reflexivity. Qed.
Lemma cc_rtu_size_closed b p :
  eval (env_of [("byte2int(data[byte_count_pos])"%string, b); ("byte_count_pos"%string, p)]) (cc_rtu_size GenFramerB.crc) = b + p + 3.
Proof. reflexivity. Qed.
Lemma rc_fmts : rc_hdr_fmt rtu = ">BB"%string /\ rc_crc_fmt rtu = ">H"%string.
Proof. split; reflexivity. Qed.
Lemma rc_init_hdr : r_hdr rtu_init = {| h_uid := Some 0; h_len := Some 0; h_crc := Some [48; 48; 48; 48]%N |}.
Proof. reflexivity. Qed.

(* the size oracle never returns less than 4 *)
Definition rule_ge4 (r : size_rule) : bool :=
  match r with
  | RFixed n => 4 <=? n
  | RByteCount p => 1 <=? p          (* the size is byte + p + 3 *)
  | RFifo hi lo e => false           (* depends on the expression e: rule_sem_fifo *)
  | RMei start cnt step tail => (4 <=? start + tail) && (0 <=? step)
  | RNone => true                    (* raises, never returns a size *)
  end.

Lemma unpack_BB_nonneg bs l : unpack_s ">BB" bs = Ok l -> Forall (fun v => 0 <= v) l.
Proof.
  unfold unpack_s. rewrite parse_BB. unfold unpack.
  destruct (Nat.eqb (length bs) (fmt_size [FB; FB])) eqn:E; [|discriminate].
  intros H. inversion H. subst. clear H.
  destruct bs as [|a [|b [|c t]]]; cbn in E; try discriminate.
  cbn. repeat constructor; unfold unpack1, of_unsigned; cbn; lia.
Qed.

Lemma mei_loop_ge n : forall buffer size step r, 0 <= step ->
  mei_loop n buffer size step = Ok r -> size <= r.
Proof.
  induction n as [|n IH]; intros buffer size step r Hs H; cbn in H.
  - inversion H. lia.
  - destruct (unpack_s ">BB" (pyslice buffer (Some size) (Some (size + 2)))) as [l|] eqn:U; [|discriminate].
    cbn [bind] in H. apply unpack_BB_nonneg in U.
    destruct l as [|a [|b [|c t]]]; try discriminate.
    inversion U as [|? ? _ U']. inversion U' as [|? ? Hb _]. subst.
    apply IH in H; lia.
Qed.

(* semantic form, so that the one RFifo rule of the client table is covered too *)
Definition rule_sem (r : size_rule) : Prop := forall data n, frame_size r data = Ok n -> 4 <= n.

Lemma rule_sem_of_bool r : rule_ge4 r = true -> rule_sem r.
Proof.
  intros Hr data n H. destruct r as [k|p|hi lo e|start cnt step tail|]; cbn [rule_ge4 frame_size] in Hr, H.
  - inversion H. lia.
  - destruct (py_index data p) as [b|] eqn:E; [|discriminate]. cbn [bind] in H.
    rewrite cc_rtu_size_closed in H. inversion H. unfold zb. lia.
  - discriminate.
  - destruct (py_index data cnt) as [c|]; [|discriminate]. cbn [bind] in H.
    destruct (mei_loop (N.to_nat c) data start step) as [s|] eqn:M; [|discriminate]. cbn [bind] in H.
    inversion H. apply mei_loop_ge in M; lia.
  - discriminate.
Qed.

Lemma rule_sem_fifo hi lo s k : 4 <= k ->
  rule_sem (RFifo hi lo (EBin Add (EBin Add (EBin Shl (EAtom "hi_byte") (EInt s)) (EAtom "lo_byte")) (EInt k))).
Proof.
  intros Hk data n H. cbn [frame_size] in H.
  destruct (py_index data hi) as [h|]; [|discriminate]. cbn [bind] in H.
  destruct (py_index data lo) as [l|]; [|discriminate]. cbn [bind] in H.
  cbn in H. inversion H.
  assert (0 <= Z.shiftl (zb h) s) by (apply Z.shiftl_nonneg; unfold zb; lia).
  unfold zb in *. lia.
Qed.

Definition rows_sem (dc : decoder_code) : Prop :=
  Forall (fun r => rule_sem (cr_rule r)) (dc_classes dc) /\ rule_sem (dc_default dc).

Lemma lookup_rule_P (P : size_rule -> Prop) dc fc :
  Forall (fun row => P (cr_rule row)) (dc_classes dc) -> P (dc_default dc) -> P (lookup_rule dc fc).
Proof.
  intros H1 H2. unfold lookup_rule.
  assert (G : forall rows, Forall (fun row => P (cr_rule row)) rows ->
            forall acc, match acc with Some a => P a | None => True end ->
            match lookup_rows rows fc acc with Some r => P r | None => True end).
  { induction 1 as [|row t Hr _ IH]; intros acc Ha; [exact Ha|]. cbn [lookup_rows]. apply IH.
    destruct (cr_fc row =? fc); assumption. }
  specialize (G _ H1 None I). destruct (lookup_rows _ _ _); assumption.
Qed.

(* rows_sem is the form the proofs take apart; statements ask for it under this name *)
Definition known_rules (dc : decoder_code) : Prop := rows_sem dc.

Lemma known_of_ge4 dc : forallb (fun row => rule_ge4 (cr_rule row)) (dc_classes dc) = true ->
  rule_ge4 (dc_default dc) = true -> known_rules dc.
Proof.
  intros H1 H2. split; [|apply rule_sem_of_bool, H2]. apply Forall_forall. intros row Hin.
  apply rule_sem_of_bool. exact (proj1 (forallb_forall _ _) H1 row Hin).
Qed.

Lemma known_server : known_rules server_decoder.
Proof. apply known_of_ge4; reflexivity. Qed.

Lemma known_client : known_rules client_decoder.
Proof.
  split; [|apply rule_sem_of_bool; reflexivity].
  repeat (apply Forall_cons; [first [apply rule_sem_of_bool; reflexivity | apply rule_sem_fifo; lia]|]).
  apply Forall_nil.
Qed.

Lemma size_ge4 dc fc data n : known_rules dc ->
  frame_size (lookup_rule dc fc) data = Ok n -> 4 <= n.
Proof. intros [H1 H2]. exact (lookup_rule_P rule_sem dc fc H1 H2 data n). Qed.

Lemma rtu_build_spec uid fc data : (uid < 256)%N -> (fc < 256)%N -> wfb data = true ->
  rtu_build (Z.of_N uid) (Z.of_N fc) data = Ok (spec_adu_rtu uid (fc :: data)).
Proof.
  intros Hu Hf Hw. unfold rtu_build. destruct rc_fmts as [-> ->].
  rewrite pack_BB by assumption. cbn [bind app].
  assert (Hw' : wfb (uid :: fc :: data) = true) by (rewrite !wfb_cons; auto).
  rewrite py_crc_bitwise by exact Hw'. cbn [bind]. rewrite (pack_H_swapped _ (crc16_lt _ Hw')). reflexivity.
Qed.

Lemma spec_adu_rtu_shape u pdu : wfb (u :: pdu) = true ->
  exists lo hi, spec_adu_rtu u pdu = (u :: pdu) ++ [lo; hi] /\ (lo < 256)%N /\ (hi < 256)%N /\
                crc16_bitwise (u :: pdu) = (lo + 256 * hi)%N.
Proof.
  intros Hw. unfold spec_adu_rtu, with_crc. pose proof (crc16_lt _ Hw) as Hc.
  exists (crc_lo (crc16_bitwise (u :: pdu))), (crc_hi (crc16_bitwise (u :: pdu))).
  split; [reflexivity|]. split; [apply crc_lo_lt|]. split; [apply crc_hi_lt; exact Hc|].
  symmetry. apply crc_lo_hi.
Qed.

Lemma adu_crc_ok u pdu : wfb (u :: pdu) = true -> crc_ok (spec_adu_rtu u pdu) = true.
Proof.
  intros Hw. destruct (spec_adu_rtu_shape u pdu Hw) as (lo & hi & -> & _ & _ & E).
  rewrite crc_ok_snoc, E. apply N.eqb_refl.
Qed.

Lemma adu_wfb u pdu : wfb (u :: pdu) = true -> wfb (spec_adu_rtu u pdu) = true.
Proof.
  intros Hw. destruct (spec_adu_rtu_shape u pdu Hw) as (lo & hi & -> & Hlo & Hhi & _).
  rewrite wfb_app, Hw. apply wfb_cons. split; [exact Hlo|]. apply wfb_cons. split; [exact Hhi|reflexivity].
Qed.

Lemma adu_spec_rx u pdu : wfb (u :: pdu) = true -> pdu <> [] -> spec_rx_rtu (spec_adu_rtu u pdu) = Some (pdu, u).
Proof.
  intros Hw Hne. pose proof (adu_crc_ok u pdu Hw) as Hok. unfold spec_adu_rtu, with_crc in *. cbn [app] in *.
  unfold spec_rx_rtu. rewrite Hok. cbn [length]. rewrite app_length. cbn [length].
  destruct pdu as [|fc data]; [congruence|]. cbn [length].
  replace (4 <=? S (S (length data) + 2))%nat with true by (symmetry; apply Nat.leb_le; lia).
  cbn [andb]. rewrite firstn_app_exact by (cbn [length]; lia). reflexivity.
Qed.

Lemma hdr_is_empty_eq h : hdr_is_empty h = true -> h = hdr_empty.
Proof. destruct h as [[|] [|] [|]]; intros H; try discriminate H. reflexivity. Qed.

Lemma py_index_01 {A} (u fc : A) t : py_index (u :: fc :: t) 0 = Ok u /\ py_index (u :: fc :: t) 1 = Ok fc.
Proof. split; rewrite py_index_nat by lia; reflexivity. Qed.

Lemma rtu_populate_eq cfg u fc t h : let buf := u :: fc :: t in
  rtu_populate cfg {| r_buf := buf; r_hdr := h |} =
  match frame_size (lookup_rule (cf_rules cfg) (zb fc)) buf with
  | Raise e => ({| r_buf := buf; r_hdr := {| h_uid := Some (zb u); h_len := h_len h; h_crc := h_crc h |} |}, Some e)
  | Ok size => ({| r_buf := buf; r_hdr := {| h_uid := Some (zb u); h_len := Some size;
                                            h_crc := Some (pyslice buf (Some (size - 2)) (Some size)) |} |}, None)
  end.
Proof.
  cbv zeta. unfold rtu_populate. cbn [r_buf r_hdr]. destruct (py_index_01 u fc t) as [-> ->].
  destruct (frame_size _ _); reflexivity.
Qed.

Lemma rtu_populate_buf cfg st : r_buf (fst (rtu_populate cfg st)) = r_buf st.
Proof.
  unfold rtu_populate. destruct (py_index (r_buf st) 0); [|reflexivity].
  destruct (py_index (r_buf st) 1); [|reflexivity]. destruct (frame_size _ _); reflexivity.
Qed.

Lemma rtu_ready_short cfg st : zlen (r_buf st) <= 1 -> rtu_ready cfg st = (st, Ok false).
Proof. intros H. unfold rtu_ready. rewrite rc_ready_closed. replace (_ >? 1) with false by lia. reflexivity. Qed.

Lemma rtu_ready_pending cfg st : 1 < zlen (r_buf st) -> hdr_is_empty (r_hdr st) = false ->
  rtu_ready cfg st =
    (st, match h_len (r_hdr st) with Some l => Ok (zlen (r_buf st) >=? l) | None => Raise KeyError end).
Proof.
  intros H He. unfold rtu_ready. rewrite rc_ready_closed. replace (_ >? 1) with true by lia.
  rewrite He. cbv iota. rewrite He. destruct (h_len (r_hdr st)); [rewrite rc_ready2_closed|]; reflexivity.
Qed.

Lemma rtu_ready_fresh cfg u fc t : let buf := u :: fc :: t in
  rtu_ready cfg {| r_buf := buf; r_hdr := hdr_empty |} =
  match frame_size (lookup_rule (cf_rules cfg) (zb fc)) buf with
  | Raise IndexError => ({| r_buf := buf; r_hdr := hdr_empty |}, Ok false)
  | Raise e => ({| r_buf := buf; r_hdr := {| h_uid := Some (zb u); h_len := None; h_crc := None |} |}, Raise e)
  | Ok size => ({| r_buf := buf; r_hdr := {| h_uid := Some (zb u); h_len := Some size;
                                            h_crc := Some (pyslice buf (Some (size - 2)) (Some size)) |} |},
                Ok (zlen buf >=? size))
  end.
Proof.
  cbv zeta. unfold rtu_ready. cbn [r_buf r_hdr]. rewrite rc_ready_closed.
  replace (zlen (u :: fc :: t) >? 1) with true by (unfold zlen; cbn [length]; lia).
  cbn [hdr_is_empty hdr_empty h_uid h_len h_crc]. rewrite rtu_populate_eq.
  destruct (frame_size _ _) as [size|e]; [|destruct e; reflexivity].
  cbn [hdr_is_empty h_uid h_len h_crc r_hdr]. rewrite rc_ready2_closed. reflexivity.
Qed.

Lemma rtu_ready_populated cfg u fc t h l : let buf := u :: fc :: t in
  hdr_is_empty h = false -> h_len h = Some l ->
  rtu_ready cfg {| r_buf := buf; r_hdr := h |} = ({| r_buf := buf; r_hdr := h |}, Ok (zlen buf >=? l)).
Proof.
  cbv zeta. intros He Hl.
  rewrite rtu_ready_pending by (cbn [r_buf r_hdr]; ((unfold zlen; cbn [length]; lia) || assumption)).
  cbn [r_buf r_hdr]. rewrite Hl. reflexivity.
Qed.

Lemma rtu_ready_init cfg u fc t : let buf := u :: fc :: t in
  rtu_ready cfg {| r_buf := buf; r_hdr := r_hdr rtu_init |} = ({| r_buf := buf; r_hdr := r_hdr rtu_init |}, Ok true).
Proof. exact (rtu_ready_populated cfg u fc t (r_hdr rtu_init) 0 eq_refl eq_refl). Qed.

Lemma rtu_ready_cases st :
  zlen (r_buf st) <= 1 \/ (exists u fc t, st = {| r_buf := u :: fc :: t; r_hdr := hdr_empty |}) \/
  (1 < zlen (r_buf st) /\ hdr_is_empty (r_hdr st) = false).
Proof.
  destruct (Z_le_gt_dec (zlen (r_buf st)) 1) as [L|L]; [left; exact L|right].
  destruct (hdr_is_empty (r_hdr st)) eqn:He; [left|right; split; [lia|reflexivity]].
  apply hdr_is_empty_eq in He. destruct st as [[|u [|fc t]] h]; try (unfold zlen in L; cbn in L; lia).
  cbn [r_hdr] in He. subst h. exists u, fc, t. reflexivity.
Qed.

Lemma rtu_ready_buf cfg st : r_buf (fst (rtu_ready cfg st)) = r_buf st.
Proof.
  destruct (rtu_ready_cases st) as [L | [(u & fc & t & ->) | [L He]]].
  - rewrite rtu_ready_short by exact L. reflexivity.
  - rewrite rtu_ready_fresh. destruct (frame_size _ _) as [|[]]; reflexivity.
  - rewrite rtu_ready_pending by assumption. reflexivity.
Qed.

Lemma rtu_ready_true cfg st st1 : rtu_ready cfg st = (st1, Ok true) ->
  exists u fc t h1, r_buf st = u :: fc :: t /\ st1 = {| r_buf := u :: fc :: t; r_hdr := h1 |}.
Proof.
  intros R. pose proof (rtu_ready_buf cfg st) as B. rewrite R in B. cbn [fst] in B.
  destruct (r_buf st) as [|u [|fc t]] eqn:E; try (rewrite rtu_ready_short in R by (rewrite E; cbn; lia); discriminate R).
  destruct st1 as [b1 h1]. cbn [r_buf] in B. subst b1. exists u, fc, t, h1. split; reflexivity.
Qed.

Lemma rtu_check_unsized cfg u fc t h e : let buf := u :: fc :: t in
  frame_size (lookup_rule (cf_rules cfg) (zb fc)) buf = Raise e ->
  rtu_check cfg {| r_buf := buf; r_hdr := h |} =
    ({| r_buf := buf; r_hdr := {| h_uid := Some (zb u); h_len := h_len h; h_crc := h_crc h |} |},
     if caught_by_check e then Ok false else Raise e).
Proof.
  cbv zeta. intros H. unfold rtu_check, rtu_check_body. rewrite rtu_populate_eq, H.
  destruct (caught_by_check e); reflexivity.
Qed.

(* crc_ok is the CRC of the spec side: whoever uses this never meets py_crc *)
Lemma rtu_check_sized cfg u fc t h size : let buf := u :: fc :: t in
  wfb buf = true -> frame_size (lookup_rule (cf_rules cfg) (zb fc)) buf = Ok size -> 2 <= size ->
  exists c, let st1 := {| r_buf := buf; r_hdr := {| h_uid := Some (zb u); h_len := Some size; h_crc := Some c |} |} in
  rtu_check cfg {| r_buf := buf; r_hdr := h |} =
    if size <=? zlen buf
    then if crc_ok (firstn (Z.to_nat size) buf) then (st1, Ok true) else (rtu_reset st1, Ok false)
    else (st1, Ok false).
Proof.
  cbv zeta. intros Hw Hs H2. exists (pyslice (u :: fc :: t) (Some (size - 2)) (Some size)).
  unfold rtu_check, rtu_check_body. rewrite rtu_populate_eq, Hs. cbn [r_hdr h_len r_buf].
  set (buf := u :: fc :: t) in *.
  rewrite rc_chk_data_hi_closed, rc_chk_crc_lo_closed, rc_chk_crc_hi_closed.
  rewrite pyslice_from0, !pyslice_nat by lia. cbn [Z.to_nat skipn].
  rewrite Z.sub_0_r. replace (size - (size - 2)) with 2 by lia.
  pose proof (firstn_skipn (Z.to_nat (size - 2)) buf) as Eb.
  pose proof (skipn_length (Z.to_nat (size - 2)) buf) as Ls.
  destruct (size <=? zlen buf) eqn:L.
  - (* the candidate is x ++ [c0; c1] *)
    set (x := firstn (Z.to_nat (size - 2)) buf) in *.
    destruct (skipn (Z.to_nat (size - 2)) buf) as [|c0 [|c1 z]]; try (unfold zlen in L; cbn [length] in Ls; lia).
    assert (Lx : length x = Z.to_nat (size - 2)) by (apply firstn_length_le; unfold zlen in L; lia).
    rewrite <- Eb in Hw. rewrite wfb_app in Hw. apply andb_prop in Hw as [Hx Hc]. cbn in Hc. unfold byteb in Hc.
    replace (firstn (Z.to_nat size) buf) with (x ++ [c0; c1])
      by (rewrite <- Eb; change (c0 :: c1 :: z) with ([c0; c1] ++ z); rewrite app_assoc; symmetry;
          apply firstn_app_exact; rewrite app_length; cbn [length]; lia).
    change (firstn (Z.to_nat 2) (c0 :: c1 :: z)) with [c0; c1].
    destruct (py_index_01 c0 c1 []) as [-> ->].
    rewrite rc_chk_crc_val_closed, py_check_crc_spec, crc_val_eqb, crc_ok_snoc by (try apply crc16_lt; assumption || lia).
    destruct (_ =? _)%N; reflexivity.
  - (* the two CRC bytes are not both there: IndexError, caught *)
    set (crc := firstn (Z.to_nat 2) _).
    assert (Lc : zlen crc <= 1) by (unfold crc, zlen in *; rewrite firstn_length, Ls; lia).
    destruct (py_index crc 0) as [c0|e] eqn:C0.
    + rewrite (py_index_short crc 1) by exact Lc. reflexivity.
    + apply py_index_exn in C0. subst e. reflexivity.
Qed.

Lemma rtu_check_buf cfg st st2 r : rtu_check cfg st = (st2, r) ->
  r_buf st2 = r_buf st \/ (r = Ok false /\ r_buf st2 = [] /\ r_hdr st2 = hdr_empty).
Proof.
  unfold rtu_check, rtu_check_body. pose proof (rtu_populate_buf cfg st) as B.
  destruct (rtu_populate cfg st) as [st1 [e|]]; cbn [fst] in B; intros H.
  - left. destruct (caught_by_check e); inversion H; subst; exact B.
  - destruct (h_len (r_hdr st1)) as [fsz|]; [|left; inversion H; subst; exact B].
    destruct (py_index _ 0) as [c0|e]; [|left; destruct (caught_by_check e); inversion H; subst; exact B].
    destruct (py_index _ 1) as [c1|e]; [|left; destruct (caught_by_check e); inversion H; subst; exact B].
    destruct (py_check_crc _ _) as [[|]|e]; [left| |left; destruct (caught_by_check e)]; inversion H; subst; try exact B.
    right. repeat split; reflexivity.
Qed.

(* {} (populateHeader will say l), the initial dict (len 0: checkFrame looks and says l), or populated with l.
   [hdr_waiting f], which the statements about valid frames use, unfolds to [hdr_awaits (zlen f)]. *)
Definition hdr_awaits (l : Z) (h : rhdr) : Prop :=
  h = hdr_empty \/ h = r_hdr rtu_init \/ (hdr_is_empty h = false /\ h_len h = Some l).

Section Extent.
  Variables (cfg : fcfg) (u fc : N) (t : bytes) (l : Z).
  Let buf := u :: fc :: t.
  Let rule := lookup_rule (cf_rules cfg) (zb fc).

  Lemma rtu_loop_short k h acc : wfb buf = true -> hdr_awaits l h -> zlen buf < l ->
    frame_size rule buf = Raise IndexError \/ (frame_size rule buf = Ok l /\ 2 <= l) ->
    exists h', rtu_loop (S k) cfg {| r_buf := buf; r_hdr := h |} acc = ({| r_buf := buf; r_hdr := h' |}, acc, FOk)
               /\ hdr_awaits l h'.
  Proof.
    unfold buf, rule in *. intros Hw Hh Hlt Fs. cbn [rtu_loop]. destruct Hh as [-> | [-> | [He Hl]]].
    - rewrite rtu_ready_fresh. destruct Fs as [-> | [-> _]].
      + exists hdr_empty. split; [reflexivity|left; reflexivity].
      + replace (_ >=? l) with false by lia. eexists. split; [reflexivity|]. right. right. split; reflexivity.
    - (* ready (len 0); checkFrame cannot see the whole candidate: header := {} , break *)
      rewrite rtu_ready_init. exists hdr_empty. split; [|left; reflexivity]. destruct Fs as [Fs | [Fs H2]].
      + rewrite (rtu_check_unsized cfg u fc t _ _ Fs). reflexivity.
      + destruct (rtu_check_sized cfg u fc t (r_hdr rtu_init) l Hw Fs H2) as [c C]. cbv zeta in C.
        replace (l <=? _) with false in C by lia. rewrite C. reflexivity.
    - rewrite (rtu_ready_populated cfg u fc t h l He Hl). replace (_ >=? l) with false by lia.
      exists h. split; [reflexivity|]. right. right. split; assumption.
  Qed.

  Lemma rtu_ready_full h : hdr_awaits l h -> frame_size rule buf = Ok l -> l <= zlen buf ->
    exists h1, rtu_ready cfg {| r_buf := buf; r_hdr := h |} = ({| r_buf := buf; r_hdr := h1 |}, Ok true).
  Proof.
    unfold buf, rule in *. intros Hh Fs Hb. destruct Hh as [-> | [-> | [He Hl]]].
    - rewrite rtu_ready_fresh, Fs. replace (_ >=? l) with true by lia. eexists. reflexivity.
    - rewrite rtu_ready_init. eexists. reflexivity.
    - rewrite (rtu_ready_populated cfg u fc t h l He Hl). replace (_ >=? l) with true by lia. eexists. reflexivity.
  Qed.
End Extent.

(* the exit of _process for each answer of the decoder *)
Definition dec_exit (d : dres) : fexit :=
  match d with DMsg => FOk | DNone => FExn ModbusIOExc | DRaise e => FExn e | DMissing => FMissing end.

Lemma rtu_process_adu cfg st u body rest : r_buf st = spec_adu_rtu u body ++ rest ->
  h_uid (r_hdr st) = Some (zb u) -> h_len (r_hdr st) = Some (zlen (spec_adu_rtu u body)) ->
  rtu_advance st = {| r_buf := rest; r_hdr := hdr_empty |} /\
  rtu_process cfg st = match cf_dec cfg body with
                       | DMsg => ({| r_buf := rest; r_hdr := hdr_empty |}, [(body, zb u)], FOk)
                       | d => (st, [], dec_exit d)
                       end.
Proof.
  intros Hb Hu Hl.
  assert (A : rtu_advance st = {| r_buf := rest; r_hdr := hdr_empty |}).
  { unfold rtu_advance. rewrite Hl, rc_adv_closed, Hb, pyslice_suffix by reflexivity. reflexivity. }
  split; [exact A|].
  unfold rtu_process, rtu_get_frame. rewrite Hl, rc_get_start_closed, rc_get_end_closed, rc_get_cond_closed, Hb.
  unfold spec_adu_rtu, with_crc. set (c := crc16_bitwise _).
  change ((u :: body) ++ [crc_lo c; crc_hi c]) with ([u] ++ body ++ [crc_lo c; crc_hi c]).
  rewrite <- !app_assoc, pyslice_mid by (rewrite ?app_assoc, ?zlen_app; unfold zlen; cbn [length]; lia).
  replace (_ >? 0) with true by (rewrite !zlen_app; unfold zlen; cbn [length]; lia).
  destruct (cf_dec cfg body); try reflexivity. rewrite Hu, A. reflexivity.
Qed.

Lemma validate_some cfg v : exists b, validate_unit cfg (Some v) = Ok b.
Proof. unfold validate_unit. destruct (cf_single cfg); [eexists; reflexivity|]. destruct (_ || _)%bool; eexists; reflexivity. Qed.

Lemma rtu_accept cfg u fc t h st2 : let buf := u :: fc :: t in
  known_rules (cf_rules cfg) -> wfb buf = true -> rtu_check cfg {| r_buf := buf; r_hdr := h |} = (st2, Ok true) ->
  exists body rest, buf = spec_adu_rtu u body ++ rest /\ body <> [] /\ wfb (u :: body) = true /\
    r_buf st2 = buf /\ h_uid (r_hdr st2) = Some (zb u) /\ h_len (r_hdr st2) = Some (zlen (spec_adu_rtu u body)).
Proof.
  cbv zeta. intros Hk Hw C.
  destruct (frame_size (lookup_rule (cf_rules cfg) (zb fc)) (u :: fc :: t)) as [size|e] eqn:Fs.
  2: { rewrite (rtu_check_unsized cfg u fc t h e Fs) in C. destruct (caught_by_check e); discriminate C. }
  pose proof (size_ge4 _ _ _ _ Hk Fs) as H4.
  destruct (rtu_check_sized cfg u fc t h size Hw Fs ltac:(lia)) as [c E]. cbv zeta in E. rewrite E in C. clear E.
  set (buf := u :: fc :: t) in *.
  destruct (size <=? zlen buf) eqn:L; [|discriminate C].
  destruct (crc_ok (firstn (Z.to_nat size) buf)) eqn:K; [|discriminate C]. inversion C. subst st2. clear C.
  (* the candidate has 4 + m bytes and passes the check: it is with_crc (u :: fc :: firstn m t) *)
  destruct (Z.to_nat size) as [|[|[|[|m]]]] eqn:Em; try lia.
  assert (Lt : (S (S m) <= length t)%nat) by (unfold zlen, buf in L; cbn [length] in L; lia).
  apply crc_ok_with_crc in K; [|apply wfb_firstn, Hw].
  rewrite firstn_length_le in K by (unfold buf; cbn [length]; lia). cbn [Nat.sub] in K.
  rewrite firstn_firstn, Nat.min_l in K by lia. unfold buf in K at 2. rewrite !firstn_cons in K.
  exists (fc :: firstn m t), (skipn (S (S (S (S m)))) buf). fold (spec_adu_rtu u (fc :: firstn m t)) in K.
  split; [rewrite <- K; symmetry; apply firstn_skipn|]. split; [discriminate|].
  split; [exact (wfb_firstn (S (S m)) buf Hw)|]. cbn [r_buf r_hdr h_uid h_len]. repeat split.
  f_equal. rewrite <- K. unfold zlen. rewrite firstn_length_le by (unfold buf; cbn [length]; lia). lia.
Qed.

Definition rtu_justified (buf : bytes) (d : delivered) : Prop :=
  exists u pre rest, buf = pre ++ spec_adu_rtu u (fst d) ++ rest /\ snd d = Z.of_N u /\
                     crc_ok (spec_adu_rtu u (fst d)) = true /\ spec_rx_rtu (spec_adu_rtu u (fst d)) = Some (fst d, u).

Lemma rtu_justified_shift pre buf d : rtu_justified buf d -> rtu_justified (pre ++ buf) d.
Proof. intros (u & p & r & E & H). exists u, (pre ++ p), r. rewrite E, <- app_assoc. split; [reflexivity|exact H]. Qed.

Lemma rtu_justified_extend buf post d : rtu_justified buf d -> rtu_justified (buf ++ post) d.
Proof. intros (u & p & r & E & H). exists u, p, (r ++ post). rewrite E, <- !app_assoc. split; [reflexivity|exact H]. Qed.

(* the ways an iteration of the while loop ends the call, with the state and the exit it leaves *)
Inductive rtu_stop (cfg : fcfg) (st : rstate) : rstate -> fexit -> Prop :=
| stop_ready st1 r : rtu_ready cfg st = (st1, r) -> r <> Ok true ->
    rtu_stop cfg st st1 (match r with Ok _ => FOk | Raise e => FExn e end)
| stop_check st1 st2 e : rtu_ready cfg st = (st1, Ok true) -> rtu_check cfg st1 = (st2, Raise e) ->
    rtu_stop cfg st st2 (FExn e)
| stop_resync st1 st2 : rtu_ready cfg st = (st1, Ok true) -> rtu_check cfg st1 = (st2, Ok false) -> r_buf st2 <> [] ->
    rtu_stop cfg st {| r_buf := r_buf st2; r_hdr := hdr_empty |} FOk
| stop_process u body rest st2 : r_buf st = spec_adu_rtu u body ++ rest -> wfb (u :: body) = true ->
    r_buf st2 = r_buf st -> h_uid (r_hdr st2) = Some (zb u) -> h_len (r_hdr st2) = Some (zlen (spec_adu_rtu u body)) ->
    cf_dec cfg body <> DMsg -> rtu_stop cfg st st2 (dec_exit (cf_dec cfg body)).

Lemma rtu_stop_buf cfg st st' x : rtu_stop cfg st st' x -> r_buf st' = r_buf st.
Proof.
  assert (B : forall st1 r, rtu_ready cfg st = (st1, r) -> r_buf st1 = r_buf st).
  { intros st1 r R. pose proof (rtu_ready_buf cfg st) as B. rewrite R in B. exact B. }
  intros [st1 r R _|st1 st2 e R C|st1 st2 R C Hne|u body rest st2 _ _ E _ _ _].
  - exact (B _ _ R).
  - destruct (rtu_check_buf _ _ _ _ C) as [E|(E & _)]; [rewrite E; exact (B _ _ R)|discriminate E].
  - cbn [r_buf]. destruct (rtu_check_buf _ _ _ _ C) as [E|(_ & E & _)]; [rewrite E; exact (B _ _ R)|contradiction].
  - exact E.
Qed.

Lemma rtu_stop_fuel cfg st st' x : rtu_stop cfg st st' x -> x <> FOutOfFuel.
Proof. intros [st1 [[|]|e]| | |]; try discriminate. destruct (cf_dec cfg body); discriminate. Qed.

(* [pre] is a frame, delivered or skipped, or the whole buffer when a complete candidate fails its CRC *)
Lemma rtu_iter cfg st : known_rules (cf_rules cfg) -> wfb (r_buf st) = true ->
  (exists st' x, rtu_stop cfg st st' x /\ forall k acc, rtu_loop (S k) cfg st acc = (st', acc, x)) \/
  (exists pre rest ds, r_buf st = pre ++ rest /\ pre <> [] /\ Forall (rtu_justified pre) ds /\
     forall k acc, rtu_loop (S k) cfg st acc = rtu_loop k cfg {| r_buf := rest; r_hdr := hdr_empty |} (acc ++ ds)).
Proof.
  intros Hk Hw.
  assert (NotReady : forall r, rtu_ready cfg st = (fst (rtu_ready cfg st), r) -> r <> Ok true ->
            exists st' x, rtu_stop cfg st st' x /\ forall k acc, rtu_loop (S k) cfg st acc = (st', acc, x)).
  { intros r R Hr. eexists _, _. split; [exact (stop_ready _ _ _ _ R Hr)|].
    intros. cbn [rtu_loop]. rewrite R. destruct r as [[|]|e]; [congruence|reflexivity|reflexivity]. }
  destruct (rtu_ready cfg st) as [st1 r] eqn:R. cbn [fst] in NotReady.
  destruct r as [[|]|e]; [|left; apply (NotReady _ eq_refl); discriminate..].
  destruct (rtu_ready_true _ _ _ R) as (u & fc & t & h1 & Eb & ->). rewrite Eb in Hw.
  destruct (rtu_check cfg {| r_buf := u :: fc :: t; r_hdr := h1 |}) as [st2 [[|]|e]] eqn:C.
  - (* checkFrame True: a frame is accepted *)
    destruct (rtu_accept cfg u fc t h1 st2 Hk Hw C) as (body & rest & E & Hne & Hwb & B2 & Hu & Hl).
    destruct (rtu_process_adu cfg st2 u body rest (eq_trans B2 E) Hu Hl) as [A P]. rewrite <- Eb in E.
    assert (J : rtu_justified (spec_adu_rtu u body) (body, zb u)).
    { exists u, [], []. cbn [fst snd app]. rewrite app_nil_r.
      repeat split; [apply adu_crc_ok|apply adu_spec_rx]; assumption. }
    assert (Hp : spec_adu_rtu u body <> []) by (unfold spec_adu_rtu, with_crc; discriminate).
    destruct (validate_some cfg (zb u)) as [[|] V].
    + (* the unit is served: _process *)
      assert (Stop : cf_dec cfg body <> DMsg ->
                exists st' x, rtu_stop cfg st st' x /\ forall k acc, rtu_loop (S k) cfg st acc = (st', acc, x)).
      { intros D. exists st2, (dec_exit (cf_dec cfg body)).
        split; [refine (stop_process _ _ u body rest st2 E Hwb _ Hu Hl D); congruence|].
        intros. cbn [rtu_loop]. rewrite R, C, Hu, V, P. destruct (cf_dec cfg body); [congruence|rewrite app_nil_r; reflexivity..]. }
      destruct (cf_dec cfg body) eqn:D; [|left; apply Stop; discriminate..].
      right. exists (spec_adu_rtu u body), rest, [(body, zb u)].
      repeat split; [exact E|exact Hp|repeat constructor; exact J|].
      intros. cbn [rtu_loop]. rewrite R, C, Hu, V, P. reflexivity.
    + (* the unit is not served: advanceFrame *)
      right. exists (spec_adu_rtu u body), rest, []. repeat split; [exact E|exact Hp|constructor|].
      intros. cbn [rtu_loop]. rewrite R, C, Hu, V, A, app_nil_r. reflexivity.
  - (* checkFrame False *)
    destruct (r_buf st2) as [|y b2] eqn:E2.
    + (* a complete candidate failed its CRC: everything is dropped *)
      right. exists (r_buf st), [], []. rewrite app_nil_r, Eb. repeat split; [discriminate|constructor|].
      intros. cbn [rtu_loop]. rewrite R, C, E2, app_nil_r. reflexivity.
    + left. eexists _, _. split; [refine (stop_resync _ _ _ st2 R C _); congruence|].
      intros. cbn [rtu_loop]. rewrite R, C, E2. reflexivity.
  - (* checkFrame raises *)
    left. eexists _, _. split; [exact (stop_check _ _ _ _ _ R C)|]. intros. cbn [rtu_loop]. rewrite R, C. reflexivity.
Qed.

Theorem rtu_loop_run cfg : known_rules (cf_rules cfg) -> forall fuel st acc,
  wfb (r_buf st) = true -> (length (r_buf st) < fuel)%nat ->
  exists pre new st0 st' x,
    r_buf st = pre ++ r_buf st0 /\ (st0 = st \/ r_hdr st0 = hdr_empty) /\ Forall (rtu_justified pre) new /\
    rtu_stop cfg st0 st' x /\ rtu_loop fuel cfg st acc = (st', acc ++ new, x).
Proof.
  intros Hk. induction fuel as [|k IH]; intros st acc Hw Hf; [lia|].
  destruct (rtu_iter cfg st Hk Hw) as [(st' & x & S & E) | (pre & rest & ds & Eb & Hne & J & E)].
  - exists [], [], st, st', x. rewrite E, app_nil_r. repeat split; [left; reflexivity|constructor|exact S].
  - rewrite Eb, wfb_app in Hw. apply andb_prop in Hw as [_ Hw]. rewrite E.
    destruct (IH {| r_buf := rest; r_hdr := hdr_empty |} (acc ++ ds) Hw) as (pre' & new & st0 & st' & x & Eb' & H0 & J' & S & E').
    { rewrite Eb, app_length in Hf. destruct pre; [congruence|]. cbn [r_buf length] in *. lia. }
    exists (pre ++ pre'), (ds ++ new), st0, st', x. cbn [r_buf] in Eb'.
    split; [rewrite Eb, Eb', app_assoc; reflexivity|]. split; [right; destruct H0 as [->|H0]; [reflexivity|exact H0]|].
    split; [|split; [exact S|rewrite E', app_assoc; reflexivity]].
    apply Forall_app. split; eapply Forall_impl; try eassumption; intros d;
      [apply rtu_justified_extend|apply rtu_justified_shift].
Qed.

Corollary rtu_recv_run cfg st chunk : known_rules (cf_rules cfg) -> wfb (r_buf st ++ chunk) = true ->
  exists pre new st0 st' x,
    r_buf st ++ chunk = pre ++ r_buf st0 /\ (st0 = {| r_buf := r_buf st ++ chunk; r_hdr := r_hdr st |} \/ r_hdr st0 = hdr_empty) /\
    Forall (rtu_justified pre) new /\ rtu_stop cfg st0 st' x /\ rtu_recv cfg st chunk = (st', new, x).
Proof.
  intros Hk Hw. apply (rtu_loop_run cfg Hk _ {| r_buf := r_buf st ++ chunk; r_hdr := r_hdr st |} [] Hw).
  cbn [r_buf]. lia.
Qed.

(* C07: every delivery of a call is justified by a span of the bytes it saw *)
Theorem rtu_gate cfg st chunk st' ds x :
  known_rules (cf_rules cfg) -> wfb (r_buf st ++ chunk) = true ->
  rtu_recv cfg st chunk = (st', ds, x) ->
  forall pdu uid, In (pdu, uid) ds ->
    exists u pre rest, r_buf st ++ chunk = pre ++ spec_adu_rtu u pdu ++ rest /\ uid = Z.of_N u /\
                       crc_ok (spec_adu_rtu u pdu) = true /\ spec_rx_rtu (spec_adu_rtu u pdu) = Some (pdu, u).
Proof.
  intros Hk Hw R pdu uid Hin.
  destruct (rtu_recv_run cfg st chunk Hk Hw) as (pre & new & st0 & st1 & x1 & -> & _ & J & _ & E).
  rewrite E in R. inversion R. subst. rewrite Forall_forall in J.
  exact (rtu_justified_extend _ _ _ (J _ Hin)).
Qed.

(* C07, gate + detection: a delivery from a corrupted frame can only stem from a span of another length, i.e. when
   the corruption changed the extent computed from function code / byte count *)
Theorem rtu_no_delivery_same_extent cfg st frame' st' ds x :
  known_rules (cf_rules cfg) -> r_buf st = [] -> wfb frame' = true -> crc_ok frame' = false ->
  rtu_recv cfg st frame' = (st', ds, x) ->
  forall pdu uid, In (pdu, uid) ds -> forall u, uid = Z.of_N u -> length (spec_adu_rtu u pdu) <> length frame'.
Proof.
  intros Hk Hb Hw Hbad R pdu uid Hin u Hu Hlen.
  destruct (rtu_gate cfg st frame' st' ds x Hk) with (pdu := pdu) (uid := uid) as (u' & pre & rest & Hsplit & Hu' & Hok & _);
    [rewrite Hb; exact Hw | exact R | exact Hin |].
  assert (u' = u) by lia. subst u'.
  rewrite Hb in Hsplit. cbn [app] in Hsplit.
  assert (Hnil : pre = [] /\ rest = []).
  { apply (f_equal (@length N)) in Hsplit. rewrite !app_length in Hsplit.
    destruct pre, rest; cbn [length] in Hsplit; try (split; reflexivity); lia. }
  destruct Hnil as [-> ->]. cbn [app] in Hsplit. rewrite app_nil_r in Hsplit. rewrite <- Hsplit in Hok. congruence.
Qed.

(* a negative position would index from the end of the buffer *)
Definition simple_rule (r : size_rule) : bool :=
  match r with RFixed _ => true | RByteCount p => 0 <=? p | _ => false end.

Lemma simple_rule_ext r f n q : simple_rule r = true -> frame_size r f = Ok n -> frame_size r (f ++ q) = Ok n.
Proof.
  destruct r as [k|p| | |]; cbn [simple_rule frame_size]; try discriminate; intros Hs H; [exact H|].
  rewrite py_index_nat in * by lia. destruct (nth_error f (Z.to_nat p)) eqn:N; [|discriminate H].
  rewrite nth_error_app1, N by (apply nth_error_Some; congruence). exact H.
Qed.

Lemma simple_rule_prefix r f n b q : simple_rule r = true -> frame_size r f = Ok n -> f = b ++ q ->
  frame_size r b = Raise IndexError \/ frame_size r b = Ok n.
Proof.
  destruct r as [k|p| | |]; cbn [simple_rule frame_size]; try discriminate; intros Hs H ->; [right; exact H|].
  rewrite py_index_nat in * by lia. destruct (nth_error b (Z.to_nat p)) eqn:N; [right|left; reflexivity].
  rewrite nth_error_app1, N in H by (apply nth_error_Some; congruence). exact H.
Qed.

(* a = true: the unit filter and the decoder accept it (it must be delivered); a = false: the unit filter
   rejects it (it must be skipped, silently) *)
Record valid_frame (cfg : fcfg) (a : bool) (u : N) (pdu : bytes) : Prop := {
  vf_wfb : wfb (u :: pdu) = true;
  vf_dec : a = true -> cf_dec cfg pdu = DMsg;
  vf_unit : validate_unit cfg (Some (zb u)) = Ok a;
  vf_fc : exists fc data, pdu = fc :: data /\
          simple_rule (lookup_rule (cf_rules cfg) (zb fc)) = true /\
          frame_size (lookup_rule (cf_rules cfg) (zb fc)) (spec_adu_rtu u pdu) = Ok (zlen (spec_adu_rtu u pdu))
}.

(* convertible with [hdr_awaits (zlen f) h] *)
Definition hdr_waiting (f : bytes) (h : rhdr) : Prop :=
  h = hdr_empty \/ h = r_hdr rtu_init \/ (hdr_is_empty h = false /\ h_len h = Some (zlen f)).

Lemma rtu_loop_complete cfg k h a u pdu q acc :
  valid_frame cfg a u pdu -> hdr_waiting (spec_adu_rtu u pdu) h -> wfb q = true ->
  rtu_loop (S k) cfg {| r_buf := spec_adu_rtu u pdu ++ q; r_hdr := h |} acc =
  rtu_loop k cfg {| r_buf := q; r_hdr := hdr_empty |} (acc ++ if a then [(pdu, zb u)] else []).
Proof.
  intros [Hw Hd Hu (fc & data & -> & Hs & Hsz)] Hh Hwq.
  set (f := spec_adu_rtu u (fc :: data)) in *.
  assert (Et : exists t, f ++ q = u :: fc :: t) by (eexists; reflexivity). destruct Et as [t Et].
  pose proof (simple_rule_ext _ _ _ q Hs Hsz) as Fs.
  assert (Hwb : wfb (f ++ q) = true) by (rewrite wfb_app, Hwq, andb_true_r; exact (adu_wfb _ _ Hw)).
  assert (Hl : 4 <= zlen f <= zlen (f ++ q))
    by (pose proof (zlen_nonneg q); rewrite zlen_app; unfold f, spec_adu_rtu, with_crc; rewrite zlen_app; unfold zlen; cbn [length]; lia).
  rewrite Et in *.
  destruct (rtu_ready_full cfg u fc t (zlen f) h (Hh : hdr_awaits (zlen f) h) Fs ltac:(lia)) as [h1 R].
  destruct (rtu_check_sized cfg u fc t h1 (zlen f) Hwb Fs ltac:(lia)) as [c C]. cbv zeta in C.
  replace (zlen f <=? _) with true in C by lia.
  replace (firstn (Z.to_nat (zlen f)) (u :: fc :: t)) with f in C
    by (rewrite <- Et; symmetry; apply firstn_app_exact; unfold zlen; lia).
  rewrite (adu_crc_ok _ _ Hw : crc_ok f = true) in C.
  cbn [rtu_loop]. rewrite R, C. cbn [r_hdr h_uid]. rewrite Hu.
  destruct (rtu_process_adu cfg {| r_buf := u :: fc :: t; r_hdr := {| h_uid := Some (zb u); h_len := Some (zlen f); h_crc := Some c |} |}
              u (fc :: data) q (eq_sym Et) eq_refl eq_refl) as [A P].
  destruct a; [rewrite P, (Hd eq_refl)|rewrite A, app_nil_r]; reflexivity.
Qed.

Lemma rtu_loop_incomplete cfg k h a u pdu b q acc :
  valid_frame cfg a u pdu -> hdr_waiting (spec_adu_rtu u pdu) h ->
  spec_adu_rtu u pdu = b ++ q -> q <> [] ->
  exists h', rtu_loop (S k) cfg {| r_buf := b; r_hdr := h |} acc = ({| r_buf := b; r_hdr := h' |}, acc, FOk) /\
             hdr_waiting (spec_adu_rtu u pdu) h'.
Proof.
  intros [Hw Hd Hu (fc & data & -> & Hs & Hsz)] Hh Hf Hq.
  set (f := spec_adu_rtu u (fc :: data)) in *.
  assert (Hlt : zlen b < zlen f) by (rewrite Hf, zlen_app; destruct q; [congruence|unfold zlen; cbn [length]; lia]).
  destruct (Z_le_gt_dec (zlen b) 1) as [Hb1|Hb1].
  { cbn [rtu_loop]. rewrite rtu_ready_short by exact Hb1. exists h. split; [reflexivity|exact Hh]. }
  assert (Eb : exists t, b = u :: fc :: t).
  { destruct b as [|x [|y t]]; try (unfold zlen in Hb1; cbn in Hb1; lia). inversion Hf. eexists. reflexivity. }
  destruct Eb as [t ->].
  apply (rtu_loop_short cfg u fc t (zlen f)); [|exact (Hh : hdr_awaits (zlen f) h)|exact Hlt|].
  - pose proof (adu_wfb _ _ Hw) as W. fold f in W. rewrite Hf, wfb_app in W. apply andb_prop in W. tauto.
  - destruct (simple_rule_prefix _ _ _ _ q Hs Hsz Hf) as [Fs|Fs]; [left; exact Fs|right; split; [exact Fs|]].
    unfold zlen in *. cbn [length] in *. lia.
Qed.

Lemma rtu_loop_empty cfg k h acc :
  rtu_loop (S k) cfg {| r_buf := []; r_hdr := h |} acc = ({| r_buf := []; r_hdr := h |}, acc, FOk).
Proof. cbn [rtu_loop]. rewrite rtu_ready_short by (cbn; lia). reflexivity. Qed.

Lemma rtu_whole_frame_waiting cfg h u pdu : valid_frame cfg true u pdu -> hdr_waiting (spec_adu_rtu u pdu) h ->
  rtu_recv cfg {| r_buf := []; r_hdr := h |} (spec_adu_rtu u pdu) = ({| r_buf := []; r_hdr := hdr_empty |}, [(pdu, zb u)], FOk).
Proof.
  intros V Hh. unfold rtu_recv. cbn [r_buf r_hdr app]. cbn [length].
  rewrite <- (app_nil_r (spec_adu_rtu u pdu)) at 2.
  rewrite (rtu_loop_complete cfg _ h true u pdu [] [] V Hh eq_refl). apply rtu_loop_empty.
Qed.

Lemma valid_frame_intro cfg a u fc data : wfb (u :: fc :: data) = true -> (a = true -> cf_dec cfg (fc :: data) = DMsg) ->
  validate_unit cfg (Some (zb u)) = Ok a -> simple_rule (lookup_rule (cf_rules cfg) (zb fc)) = true ->
  frame_size (lookup_rule (cf_rules cfg) (zb fc)) (spec_adu_rtu u (fc :: data)) = Ok (zlen (spec_adu_rtu u (fc :: data))) ->
  valid_frame cfg a u (fc :: data).
Proof. intros. constructor; try assumption. exists fc, data. repeat split; assumption. Qed.

Example valid_frame_example :
  let cfg := {| cf_dec := fun _ => DMsg; cf_rules := server_decoder; cf_units := [1]; cf_single := false |} in
  valid_frame cfg true 1 [3; 0; 1; 0; 2]%N /\ valid_frame cfg true 1 [16; 0; 1; 0; 1; 2; 123; 125]%N /\
  valid_frame cfg false 9 [3; 0; 1; 0; 2]%N.
Proof. cbv zeta. repeat apply conj; apply valid_frame_intro; try reflexivity; discriminate. Qed.

(* (accepted by the unit filter?, (unit, PDU)) *)
Definition frame := (bool * (N * bytes))%type.
Definition adu_of (f : frame) : bytes := spec_adu_rtu (fst (snd f)) (snd (snd f)).
Definition msg_of (f : frame) : list delivered := if fst f then [(snd (snd f), zb (fst (snd f)))] else [].
Definition vf (cfg : fcfg) (f : frame) : Prop := valid_frame cfg (fst f) (fst (snd f)) (snd (snd f)).
Definition stream (fs : list frame) : bytes := flat_map adu_of fs.
Definition msgs (fs : list frame) : list delivered := flat_map msg_of fs.

(* convertible with [partial adu_of q nxt] of Section Stream (Base_proofs), whose lemmas are used on it below *)
Definition tail_ok (q : bytes) (nxt : list frame) : Prop :=
  match nxt with [] => q = [] | f :: _ => exists q', adu_of f = q ++ q' /\ q' <> [] end.

Definition hdr_for (nxt : list frame) (h : rhdr) : Prop :=
  match nxt with [] => True | f :: _ => hdr_waiting (adu_of f) h end.

Lemma stream_wfb cfg fs : Forall (vf cfg) fs -> wfb (stream fs) = true.
Proof.
  induction 1 as [|f t V _ IH]; [reflexivity|]. unfold stream. cbn [flat_map]. fold (stream t).
  rewrite wfb_app, IH, (adu_wfb _ _ (vf_wfb _ _ _ _ V) : wfb (adu_of f) = true). reflexivity.
Qed.

Lemma tail_wfb cfg q nxt : Forall (vf cfg) nxt -> tail_ok q nxt -> wfb q = true.
Proof.
  destruct nxt as [|f t]; cbn [tail_ok]; intros Hall Hs; [subst; reflexivity|].
  destruct Hs as (q' & E & _). inversion Hall as [|? ? V _]. subst.
  pose proof (adu_wfb _ _ (vf_wfb _ _ _ _ V) : wfb (adu_of f) = true) as W. rewrite E, wfb_app in W. apply andb_prop in W. tauto.
Qed.

Lemma adu_of_ne f : adu_of f <> [].
Proof. unfold adu_of, spec_adu_rtu, with_crc. discriminate. Qed.

Lemma stream_concat fs : stream fs = concat (map adu_of fs).
Proof. apply flat_map_concat_map. Qed.

Lemma stream_len fs : (length fs <= length (stream fs))%nat.
Proof. rewrite stream_concat. exact (stream_length_ge adu_of adu_of_ne fs). Qed.

Lemma stream_split (R : list frame) s t : stream R = s ++ t ->
  exists R1 R2 q, R = R1 ++ R2 /\ s = stream R1 ++ q /\ tail_ok q R2 /\ stream R2 = q ++ t.
Proof.
  rewrite stream_concat. intros H.
  destruct (split_stream adu_of adu_of_ne R s t (eq_sym H)) as (R1 & R2 & q & -> & -> & E & Hp).
  exists R1, R2, q. rewrite !stream_concat. auto.
Qed.

Lemma rtu_loop_drain cfg : forall fs fuel nxt q h acc,
  Forall (vf cfg) fs -> Forall (vf cfg) nxt -> tail_ok q nxt ->
  hdr_for (fs ++ nxt) h -> (length fs < fuel)%nat ->
  exists h', rtu_loop fuel cfg {| r_buf := stream fs ++ q; r_hdr := h |} acc
             = ({| r_buf := q; r_hdr := h' |}, acc ++ msgs fs, FOk) /\ hdr_for nxt h'.
Proof.
  induction fs as [|f fs IH]; intros fuel nxt q h acc Hfs Hnxt Ht Hh Hf.
  - destruct fuel as [|k]; [lia|]. cbn [stream flat_map app msgs]. rewrite app_nil_r.
    destruct nxt as [|[a [u p]] t].
    + cbn in Ht. subst q. exists h. split; [apply rtu_loop_empty|exact I].
    + destruct Ht as (q' & E & Hq'). inversion Hnxt as [|? ? V _]. subst.
      exact (rtu_loop_incomplete cfg k h a u p q q' acc V Hh E Hq').
  - destruct fuel as [|k]; [cbn in Hf; lia|].
    inversion Hfs as [|? ? V Hfs']. subst. destruct f as [a [u p]]. unfold vf in V. cbn [fst snd] in V.
    unfold stream. cbn [flat_map]. fold (stream fs). unfold adu_of at 1. cbn [fst snd]. rewrite <- app_assoc.
    rewrite (rtu_loop_complete cfg k h a u p (stream fs ++ q) acc V Hh)
      by (rewrite wfb_app, (stream_wfb cfg fs Hfs'), (tail_wfb cfg q nxt Hnxt Ht); reflexivity).
    destruct (IH k nxt q hdr_empty (acc ++ (if a then [(p, zb u)] else [])) Hfs' Hnxt Ht) as (h' & R & Hw).
    + destruct (fs ++ nxt) as [|g t]; [exact I|left; reflexivity].
    + cbn [length] in Hf. lia.
    + exists h'. split; [|exact Hw]. rewrite R, <- app_assoc. reflexivity.
Qed.

Fixpoint rtu_feed_dels (cfg : fcfg) (st : rstate) (chunks : list bytes) : list delivered * list fexit :=
  match chunks with
  | [] => ([], [])
  | c :: t => let '(st1, ds, x) := rtu_recv cfg st c in
              let '(ds', xs) := rtu_feed_dels cfg st1 t in (ds ++ ds', x :: xs)
  end.

Theorem rtu_chunked cfg : forall chunks R b st,
  r_buf st = b -> Forall (vf cfg) R -> tail_ok b R -> hdr_for R (r_hdr st) ->
  stream R = b ++ concat chunks ->
  rtu_feed_dels cfg st chunks = (msgs R, map (fun _ => FOk) chunks).
Proof.
  induction chunks as [|c cs IH]; intros R b st Hb Hall Ht Hh Hs.
  - cbn [concat] in Hs. rewrite app_nil_r, stream_concat in Hs.
    rewrite (partial_whole adu_of b R Ht (eq_sym Hs)). reflexivity.
  - cbn [concat] in Hs. rewrite app_assoc in Hs.
    destruct (stream_split R (b ++ c) (concat cs) Hs) as (R1 & R2 & q & ER & Es & Ht2 & E3).
    subst R. apply Forall_app in Hall. destruct Hall as [H1 H2].
    cbn [rtu_feed_dels]. unfold rtu_recv. rewrite Hb, Es.
    destruct (rtu_loop_drain cfg R1 (S (S (length (stream R1 ++ q)))) R2 q (r_hdr st) [] H1 H2 Ht2 Hh) as (h' & RL & Hw).
    { pose proof (stream_len R1). rewrite app_length. lia. }
    cbn [r_buf] in RL |- *. rewrite RL. cbn [app].
    rewrite (IH R2 q {| r_buf := q; r_hdr := h' |} eq_refl H2 Ht2 Hw E3).
    unfold msgs. rewrite flat_map_app. reflexivity.
Qed.

Theorem rtu_chunked_sync cfg chunks R st :
  r_buf st = [] -> (r_hdr st = hdr_empty \/ r_hdr st = r_hdr rtu_init) ->
  Forall (vf cfg) R -> concat chunks = stream R ->
  rtu_feed_dels cfg st chunks = (msgs R, map (fun _ => FOk) chunks).
Proof.
  intros Hb Hh Hall Hs. apply (rtu_chunked cfg chunks R [] st Hb Hall (partial_nil adu_of adu_of_ne R)).
  - destruct R as [|f R]; [exact I|]. destruct Hh as [-> | ->]; [left|right; left]; reflexivity.
  - rewrite Hs. reflexivity.
Qed.

(* request table: total once 11 bytes are buffered, at most 268 = 255 + 10 + 3 (byte count at position 10) *)
Definition rule_tot_b (r : size_rule) : bool :=
  match r with
  | RFixed k => (4 <=? k) && (k <=? 268)
  | RByteCount p => (1 <=? p) && (p <=? 10)
  | _ => false
  end.

Lemma rule_tot_size r data : rule_tot_b r = true -> wfb data = true ->
  match frame_size r data with Ok n => 4 <= n <= 268 | Raise e => e = IndexError /\ zlen data <= 10 end.
Proof.
  destruct r as [k|p| | |]; cbn [rule_tot_b frame_size]; try discriminate; intros Hb Hw; [lia|].
  rewrite py_index_nat by lia. destruct (nth_error data (Z.to_nat p)) as [b|] eqn:N; cbn [bind].
  - rewrite cc_rtu_size_closed. pose proof (nth_error_wfb _ _ _ Hw N). unfold zb. lia.
  - apply nth_error_None in N. unfold zlen. split; [reflexivity|lia].
Qed.

Lemma server_rule_tot fc : rule_tot_b (lookup_rule server_decoder fc) = true.
Proof.
  apply (lookup_rule_P (fun r => rule_tot_b r = true)); [|reflexivity].
  apply Forall_forall, forallb_forall. reflexivity.
Qed.

Definition hdr_bounded (h : rhdr) : Prop :=
  hdr_is_empty h = true \/ exists n, h_len h = Some n /\ n <= 268.

Lemma hdr_bounded_init : hdr_bounded (r_hdr rtu_init).
Proof. right. exists 0. split; [reflexivity|lia]. Qed.

Lemma hdr_bounded_empty : hdr_bounded hdr_empty.
Proof. left. reflexivity. Qed.

Lemma rtu_ready_false_backlog cfg st st1 : (forall fc, rule_tot_b (lookup_rule (cf_rules cfg) fc) = true) -> wfb (r_buf st) = true ->
  hdr_bounded (r_hdr st) -> rtu_ready cfg st = (st1, Ok false) ->
  zlen (r_buf st) < 268 /\ hdr_bounded (r_hdr st1).
Proof.
  intros Hr Hw Hh R. destruct (rtu_ready_cases st) as [L | [(u & fc & t & ->) | [L He]]].
  - rewrite rtu_ready_short in R by exact L. inversion R. subst. split; [lia|exact Hh].
  - cbn [r_hdr r_buf] in *. rewrite rtu_ready_fresh in R.
    pose proof (rule_tot_size _ _ (Hr (zb fc)) Hw) as T.
    destruct (frame_size _ _) as [n|e]; [|destruct T as [-> T]]; inversion R; subst; cbn [r_hdr].
    + split; [lia|]. right. exists n. split; [reflexivity|lia].
    + split; [lia|apply hdr_bounded_empty].
  - destruct Hh as [Hh | (n & Hn & Hb)]; [congruence|].
    rewrite rtu_ready_pending, Hn in R by assumption. inversion R. subst.
    split; [lia|]. right. exists n. split; assumption.
Qed.

Lemma rtu_check_false_backlog cfg u fc t h st2 : let buf := u :: fc :: t in
  (forall fc, rule_tot_b (lookup_rule (cf_rules cfg) fc) = true) -> wfb buf = true ->
  rtu_check cfg {| r_buf := buf; r_hdr := h |} = (st2, Ok false) -> r_buf st2 <> [] -> zlen buf < 268.
Proof.
  cbv zeta. intros Hr Hw C Hne.
  pose proof (rule_tot_size _ _ (Hr (zb fc)) Hw) as T.
  destruct (frame_size _ _) as [n|e] eqn:Fs; [|lia].
  destruct (rtu_check_sized cfg u fc t h n Hw Fs ltac:(lia)) as [c E]. cbv zeta in E. rewrite E in C.
  destruct (n <=? _) eqn:L; [|lia].
  destruct (crc_ok _); inversion C. subst. exfalso. apply Hne. reflexivity.
Qed.

Lemma rtu_stop_backlog cfg st st' : (forall fc, rule_tot_b (lookup_rule (cf_rules cfg) fc) = true) -> wfb (r_buf st) = true ->
  hdr_bounded (r_hdr st) -> rtu_stop cfg st st' FOk -> zlen (r_buf st') < 268 /\ hdr_bounded (r_hdr st').
Proof.
  intros Hr Hw Hh S. rewrite (rtu_stop_buf _ _ _ _ S). remember FOk as x eqn:Hx.
  destruct S as [st1 r R Hn|st1 st2 e R C|st1 st2 R C Hne|u body rest st2 _ _ _ _ _ Hd].
  - destruct r as [[|]|e]; try congruence. exact (rtu_ready_false_backlog cfg st st1 Hr Hw Hh R).
  - discriminate Hx.
  - split; [|apply hdr_bounded_empty].
    destruct (rtu_ready_true _ _ _ R) as (u & fc & t & h1 & Eb & ->). rewrite Eb in *.
    exact (rtu_check_false_backlog cfg u fc t h1 st2 Hr Hw C Hne).
  - destruct (cf_dec cfg body); congruence || discriminate Hx.
Qed.
