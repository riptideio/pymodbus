(* The seam between the abstract data model (ExecSpec, C04/C05) and the PDU layer (PduSpec, C01): values.
   [cells_ok]: every configured cell holds a 16-bit value.  C04 needs no such invariant (its statements compare
   values, they never encode them); C01_encode_conforms needs every register of a response to fit its wire
   width.  Every data-access request preserves it, and with it every response of the data model is a well-formed
   spec message. *)
From PM.theories Require Import Base PduSpec ExecSpec CorrE2E.
From PM.proofs Require Import Base_proofs Pdu_proofs Pdu_more_proofs Exec_req_proofs EndToEnd_adapt_proofs.
From Coq Require Import ZifyBool.
Open Scope list_scope.
Open Scope Z_scope.
(* lia must see / and mod; importing ZifyBool resets the hook *)
Ltac Zify.zify_post_hook ::= Z.to_euclidean_division_equations.

Definition u16v (v : Z) : Prop := 0 <= v < 65536.

Definition cells_ok (s : astate) : Prop := forall b k v, a_cell s b k = Some v -> u16v v.

Lemma cells_ok_aeq s s' : aeq s s' -> cells_ok s -> cells_ok s'.
Proof. intros [_ Hc] H b k v Hv. rewrite <- Hc in Hv. exact (H b k v Hv). Qed.

Lemma is_u16_iff v : is_u16 v = true <-> u16v v.
Proof. unfold is_u16, u16v. lia. Qed.

Lemma u16_high_bit x n : u16v x -> 16 <= n -> Z.testbit x n = false.
Proof.
  intros [H0 H1] Hn. destruct (Z.eq_dec x 0) as [->|Hx]; [apply Z.testbit_0_l|].
  apply Z.bits_above_log2; [lia|]. apply Z.lt_le_trans with 16; [|lia].
  apply Z.log2_lt_pow2; [lia|]. change (2 ^ 16) with 65536. lia.
Qed.

Lemma high_bits_u16 r : (forall n, 16 <= n -> Z.testbit r n = false) -> u16v r.
Proof.
  intros Hb. assert (E : r = r mod 2 ^ 16).
  { apply Z.bits_inj'. intros n Hn. destruct (Z_lt_le_dec n 16) as [Hl|Hg].
    - now rewrite Z.mod_pow2_bits_low by lia.
    - rewrite Z.mod_pow2_bits_high by lia. now apply Hb. }
  pose proof (Z.mod_pos_bound r (2 ^ 16) eq_refl) as Hm. change (2 ^ 16) with 65536 in *. unfold u16v. lia.
Qed.

Lemma mask_result_u16 cur am om : u16v cur -> u16v om -> u16v (mask_result cur am om).
Proof.
  intros Hc Ho. unfold mask_result. apply high_bits_u16.
  intros n Hn. rewrite Z.lor_spec, !Z.land_spec.
  rewrite (u16_high_bit cur n Hc Hn), (u16_high_bit om n Ho Hn). reflexivity.
Qed.

Lemma cell_u16 s t a : cells_ok s -> u16v (match cell s t a with Some v => v | None => 0 end).
Proof. intros H. unfold cell. destruct (a_cell s (a_slot s t) a) as [x|] eqn:E; [exact (H _ _ _ E)|unfold u16v; lia]. Qed.

Lemma read_u16 s t a n : cells_ok s -> Forall u16v (read s t a n).
Proof.
  intros H. unfold read. apply Forall_forall. intros v Hv. apply in_map_iff in Hv as (k & <- & _). now apply cell_u16.
Qed.

Lemma read_length s t a n : length (read s t a n) = Z.to_nat n.
Proof. unfold read. rewrite map_length. apply zrange_length. Qed.

Lemma all_u16_forall l : all_u16 l = true <-> Forall u16v l.
Proof.
  unfold all_u16. rewrite forallb_forall, Forall_forall. split; intros H v Hv; now apply is_u16_iff, H.
Qed.

Lemma write_cells_ok s t a vs : cells_ok s -> Forall u16v vs -> cells_ok (write s t a vs).
Proof.
  intros H Hv b k v. unfold write. cbn [a_cell].
  destruct (Nat.eqb b (a_slot s t)); [|apply H].
  destruct ((a <=? k) && (k <? a + Z.of_nat (length vs))); [|apply H].
  intros E. apply nth_error_In in E. rewrite Forall_forall in Hv. exact (Hv v E).
Qed.

Lemma bits_u16 data : Forall u16v (bits_of_bytes data).
Proof.
  apply Forall_forall. intros v Hv. unfold bits_of_bytes in Hv. apply in_flat_map in Hv as (b & _ & Hb).
  unfold bits_of_byte in Hb. apply in_map_iff in Hb as (i & <- & _). unfold u16v. destruct (Z.testbit b i); lia.
Qed.

Lemma forall_firstn {A} (P : A -> Prop) n l : Forall P l -> Forall P (firstn n l).
Proof.
  intros H. revert n. induction H as [|x l Hx Hl IH]; intros n; destruct n; cbn [firstn]; constructor; auto.
Qed.

Lemma exc_wf k code : 1 <= k < 128 -> 0 <= code < 256 -> spec_wf (MException (Z.lor k 128 - 128) code) = true.
Proof. intros Hk Hc. rewrite lor_offset, Z.add_simpl_r by lia. cbn [spec_wf]. unfold is_u8. lia. Qed.

(* every exit of [spec_outcome] is a literal exception code *)
Lemma outcome_code s w c : spec_outcome s w = Some c -> 0 <= c < 256.
Proof.
  destruct w; cbn [spec_outcome]; intros H;
  repeat match type of H with
         | (if ?b then _ else _) = _ => destruct b
         | (let _ := _ in _) = _ => cbv zeta in H
         | Some _ = Some _ => injection H as <-
         | None = Some _ => discriminate H
         end; lia.
Qed.

Lemma wfc_range m w : wreq_of_msg m = Some w -> 1 <= wfc w < 128.
Proof. destruct m; cbn [wreq_of_msg]; intros H; try discriminate H; injection H as <-; cbn [wfc read_fc]; lia. Qed.

(* the registers of a write request, as the data model reads them back from the data bytes *)
Lemma words_data rs : all_u16 rs = true ->
  firstn (length rs) (words_of_bytes (zbytes (words rs))) = rs.
Proof.
  intros H. destruct (take_words_spec _ _ _ (take_words_words rs H)) as [E _]. now symmetry.
Qed.

Lemma words_data_u16 rs : all_u16 rs = true -> Forall u16v (firstn (Z.to_nat (len rs)) (words_of_bytes (zbytes (words rs)))).
Proof. intros H. unfold len. rewrite Nat2Z.id, words_data by assumption. now apply all_u16_forall. Qed.

Theorem exec_cells_ok m w s : wreq_of_msg m = Some w -> spec_wf m = true -> cells_ok s ->
  cells_ok (fst (spec_exec s w)).
Proof.
  intros Hw Hwf Hs. unfold spec_exec. destruct (spec_outcome s w) as [c|]; [exact Hs|].
  destruct m; unfold wreq_of_msg in Hw; try discriminate Hw; injection Hw as <-; cbn [spec_apply fst]; try exact Hs;
    (apply write_cells_ok; [exact Hs|]); cbn [spec_wf] in Hwf; split_andb Hwf.
  - (* FC 5 *) constructor; [|constructor]. unfold u16v. destruct on; cbn; lia.
  - (* FC 6 *) constructor; [|constructor]. now apply is_u16_iff.
  - (* FC 15 *) apply forall_firstn, bits_u16.
  - (* FC 16 *) now apply words_data_u16.
  - (* FC 22 *) constructor; [|constructor]. apply mask_result_u16; [now apply cell_u16|now apply is_u16_iff].
  - (* FC 23 *) now apply words_data_u16.
Qed.

(* the goals of [response_wf] for a bit read and a register read of n values *)
Lemma bits_rsp_wf n (vals : list Z) : n <= 2000 -> length vals = Z.to_nat n ->
  is_u8 (bit_byte_count (len (map coil_on vals))) = true.
Proof. intros Hn Hl. unfold len. rewrite map_length, Hl. unfold is_u8, bit_byte_count. lia. Qed.

Lemma regs_rsp_wf n (vals : list Z) : n <= 125 -> length vals = Z.to_nat n -> Forall u16v vals ->
  is_u8 (2 * len vals) && all_u16 vals = true.
Proof. intros Hn Hl Hv. apply all_u16_forall in Hv. rewrite Hv. unfold len. rewrite Hl. unfold is_u8. lia. Qed.

Theorem response_wf m w s : wreq_of_msg m = Some w -> spec_wf m = true -> cells_ok s ->
  spec_wf (spec_response_msg (snd (spec_exec s w))) = true.
Proof.
  intros Hw Hwf Hs. pose proof (wfc_range m w Hw) as Hfc. unfold spec_exec.
  destruct (spec_outcome s w) as [c|] eqn:Eo.
  { cbn [snd spec_response_msg]. apply exc_wf; [exact Hfc|]. exact (outcome_code _ _ _ Eo). }
  destruct m; unfold wreq_of_msg in Hw; try discriminate Hw; injection Hw as <-;
    cbn [spec_apply snd spec_response_msg read_fc Z.eqb Pos.eqb]; cbn [spec_outcome] in Eo; cbn [spec_wf] in Hwf |- *.
  (* FC 1-4: a read that passed the quantity check returns that many values *)
  1-2: destruct (negb (in_range 1 qty 2000)) eqn:E; [discriminate Eo|]; unfold in_range in E.
  3-4: destruct (negb (in_range 1 qty 125)) eqn:E; [discriminate Eo|]; unfold in_range in E.
  1-2: apply bits_rsp_wf with qty; [lia|apply read_length].
  1-2: apply regs_rsp_wf with qty; [lia|apply read_length|now apply read_u16].
  (* FC 5, 6, 22 echo the request *)
  1,2,5: exact Hwf.
  - (* FC 15 *) split_andb Hwf. now rewrite Hwf, Hwf1.
  - (* FC 16 *) split_andb Hwf. rewrite Hwf. unfold is_u8 in Hwf1. unfold is_u16. cbn [andb]. lia.
  - (* FC 23 *) match type of Eo with (if ?b then _ else _) = _ => destruct b eqn:E; [discriminate Eo|] end. unfold in_range in E.
    split_andb Hwf. apply regs_rsp_wf with rqty; [lia|apply read_length|].
    apply read_u16, write_cells_ok; [exact Hs|now apply words_data_u16].
Qed.

(* unassigned function codes included: exception 01, no change *)
Theorem body_response_wf b w s : body_ok b w -> cells_ok s ->
  spec_wf (spec_response_msg (snd (spec_exec s w))) = true /\ cells_ok (fst (spec_exec s w)).
Proof.
  destruct b as [m|fc rest]; cbn [body_ok].
  - intros [Hw Hwf] Hs. split; [exact (response_wf m w s Hw Hwf Hs)|exact (exec_cells_ok m w s Hw Hwf Hs)].
  - intros (-> & Hfc & _ & _) Hs. unfold spec_exec. cbn [spec_outcome fst snd wfc spec_response_msg].
    split; [apply exc_wf; lia|exact Hs].
Qed.
