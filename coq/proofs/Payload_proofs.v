(* Payload_proofs.v — lemmas about the payload model (theories/Payload.v): what does not depend on the
   code; then the model instantiated with [spec_code], the layout the method names promise
   (add_32bit_uint = 32-bit unsigned, …), up to the round trips through bytes, registers and coils.
   The generated [GenPayload.code] IS [spec_code] ([code_is_spec]); Props/C19.v transports the theorems
   along that equation.  The last definitions ([via_registers_statement], [via_coils]) are statements of
   Props/C19.v about [code] itself, and [via_coils_partial] rewrites with [code_is_spec] on its own. *)
From PM.theories Require Import Base Struct Payload.
From PM.proofs Require Import Base_proofs Struct_proofs.
From PM.proofs Require Pdu_bits_proofs.
From PM.Generated Require GenPayload.
From Coq Require Import ZifyNat.
Open Scope string_scope.
Open Scope list_scope.
Open Scope Z_scope.
Definition len2 (w : bytes) : Prop := length w = 2%nat.

Definition is_big (e : endian) : bool := match e with Big => true | Little => false end.

Lemma list2_ind {A} (P : list A -> Prop) :
  P [] -> (forall a, P [a]) -> (forall a b t, P t -> P (a :: b :: t)) -> forall l, P l.
Proof.
  intros H0 H1 H2 l. enough (P l /\ forall a, P (a :: l)) by tauto.
  induction l as [|b t [IH1 IH2]]; split; auto.
Qed.

Lemma words16_len2 l : Forall len2 (words16 l).
Proof. induction l using list2_ind; cbn [words16]; constructor; [reflexivity|assumption]. Qed.

Lemma concat_words16 n l : length l = (2 * n)%nat -> concat (words16 l) = l.
Proof.
  revert n. induction l as [|a|a b t IH] using list2_ind; intros n H; cbn [length] in H; [reflexivity|lia|].
  cbn [words16 concat app]. now rewrite (IH (n - 1)%nat) by lia.
Qed.

Lemma length_words16 n l : length l = (2 * n)%nat -> length (words16 l) = n.
Proof.
  revert n. induction l as [|a|a b t IH] using list2_ind; intros n H; cbn [length words16] in *; try lia.
  rewrite (IH (n - 1)%nat); lia.
Qed.

Lemma words16_concat ws : Forall len2 ws -> words16 (concat ws) = ws.
Proof.
  induction 1 as [|w ws Hw _ IH]; [reflexivity|].
  destruct w as [|a [|b [|c w]]]; try discriminate Hw. cbn [concat app words16]. now rewrite IH.
Qed.

Lemma length_concat_len2 ws : Forall len2 ws -> length (concat ws) = (2 * length ws)%nat.
Proof.
  induction 1 as [|w ws Hw _ IH]; [reflexivity|]. cbn [concat length]. rewrite app_length, IH, Hw. lia.
Qed.

Lemma wfb_concat ws : wfb (concat ws) = forallb wfb ws.
Proof. induction ws as [|w ws IH]; [reflexivity|]. cbn [concat forallb]. now rewrite wfb_app, IH. Qed.

Lemma forallb_wfb_words16 n l : length l = (2 * n)%nat -> forallb wfb (words16 l) = wfb l.
Proof. intros H. now rewrite <- wfb_concat, (concat_words16 n). Qed.

Definition img_words (bo wo : endian) (ws : list bytes) : list bytes :=
  let ws' := match wo with Big => ws | Little => rev ws end in
  match bo with Big => ws' | Little => map (@rev N) ws' end.

Lemma image_img_words bo wo B : image bo wo B = concat (img_words bo wo (words16 B)).
Proof. destruct bo, wo; reflexivity. Qed.

Lemma map_rev_len2 ws : Forall len2 ws -> Forall len2 (map (@rev N) ws).
Proof.
  intros H. apply Forall_map. eapply Forall_impl; [|exact H]. intros w Hw. unfold len2. now rewrite rev_length.
Qed.

Lemma map_rev_involutive (ws : list bytes) : map (@rev N) (map (@rev N) ws) = ws.
Proof. rewrite map_map, (map_ext _ (fun w => w)) by apply rev_involutive. apply map_id. Qed.

Lemma map_rev_wfb ws : forallb wfb (map (@rev N) ws) = forallb wfb ws.
Proof. induction ws as [|w ws IH]; [reflexivity|]. cbn [map forallb]. now rewrite wfb_rev, IH. Qed.

Lemma img_words_len2 bo wo ws : Forall len2 ws -> Forall len2 (img_words bo wo ws).
Proof. intros H. destruct bo, wo; cbn [img_words]; auto using Forall_rev, map_rev_len2. Qed.

Lemma img_words_involutive bo wo ws : img_words bo wo (img_words bo wo ws) = ws.
Proof.
  destruct bo, wo; cbn [img_words]; rewrite <- ?map_rev, ?rev_involutive, ?map_rev_involutive; reflexivity.
Qed.

Lemma img_words_length bo wo ws : length (img_words bo wo ws) = length ws.
Proof. destruct bo, wo; cbn [img_words]; rewrite ?map_length, ?rev_length; reflexivity. Qed.

Lemma img_words_wfb bo wo ws : forallb wfb (img_words bo wo ws) = forallb wfb ws.
Proof. destruct bo, wo; cbn [img_words]; rewrite ?map_rev_wfb, ?forallb_rev; reflexivity. Qed.

Lemma image_length {bo wo n B} : length B = (2 * n)%nat -> length (image bo wo B) = length B.
Proof.
  intros H. rewrite image_img_words, length_concat_len2 by apply img_words_len2, words16_len2.
  now rewrite img_words_length, (length_words16 n) by exact H.
Qed.

Theorem image_involutive {bo wo n B} : length B = (2 * n)%nat -> image bo wo (image bo wo B) = B.
Proof.
  intros H. rewrite (image_img_words bo wo (image bo wo B)), image_img_words.
  rewrite words16_concat by apply img_words_len2, words16_len2.
  rewrite img_words_involutive. apply (concat_words16 n), H.
Qed.

Lemma image_wfb {bo wo n B} : length B = (2 * n)%nat -> wfb (image bo wo B) = wfb B.
Proof.
  intros H. rewrite image_img_words, wfb_concat, img_words_wfb. apply (forallb_wfb_words16 n), H.
Qed.

Definition word_val (w : bytes) : Z := unpack1 true FH w.

Lemma pack1_word big a b :
  wfb [a; b] = true -> pack1 big FH (word_val [a; b]) = Ok (if big then [a; b] else [b; a]).
Proof.
  intros Hw. destruct big; [now apply pack1_unpack1|].
  change (word_val [a; b]) with (unpack1 false FH (rev [a; b])). change [b; a] with (rev [a; b]).
  apply pack1_unpack1; [reflexivity|now rewrite wfb_rev].
Qed.

Lemma fmt_size_repeat_FH n : fmt_size (repeat FH n) = (2 * n)%nat.
Proof.
  induction n as [|n IH]; [reflexivity|]. cbn [repeat]. unfold fmt_size in *. cbn [fold_right fwidth].
  rewrite IH. lia.
Qed.

Lemma unpack_repeat_FH n l :
  length l = (2 * n)%nat -> unpack true (repeat FH n) l = Ok (map word_val (words16 l)).
Proof.
  intros Hl. unfold unpack. rewrite fmt_size_repeat_FH, Hl, Nat.eqb_refl. f_equal.
  revert l Hl. induction n as [|n IH]; intros [|a [|b t]] Hl; cbn [length] in Hl; try lia; [reflexivity|].
  cbn [repeat unpack_go fwidth firstn skipn words16 map]. f_equal. apply IH. lia.
Qed.

Lemma map_res_pack1_FH big ws :
  Forall len2 ws -> forallb wfb ws = true ->
  map_res (pack1 big FH) (map word_val ws) = Ok (if big then ws else map (@rev N) ws).
Proof.
  induction 1 as [|w ws Hw _ IH]; intros Hb; [destruct big; reflexivity|].
  cbn [forallb] in Hb. apply andb_true_iff in Hb as [Hb1 Hb2].
  destruct w as [|a [|b [|c w]]]; try discriminate Hw.
  cbn [map map_res]. rewrite (pack1_word _ _ _ Hb1), (IH Hb2). destruct big; reflexivity.
Qed.

Lemma map_res_pack_img bo wo ws :
  Forall len2 ws -> forallb wfb ws = true ->
  map_res (pack1 (is_big bo) FH) (map word_val (if is_big wo then ws else rev ws)) = Ok (img_words bo wo ws).
Proof.
  intros H2 Hf. destruct wo; cbn [is_big];
    (rewrite map_res_pack1_FH by (auto using Forall_rev; now rewrite ?forallb_rev)); destruct bo; reflexivity.
Qed.

Lemma map_res_unpack_one_FH ws :
  Forall len2 ws -> map_res (unpack_one true FH) ws = Ok (map word_val ws).
Proof.
  induction 1 as [|w ws Hw _ IH]; [reflexivity|].
  destruct w as [|a [|b [|c w]]]; try discriminate Hw. cbn [map_res map]. now rewrite IH.
Qed.

Lemma unpack_one_pack1 big f x b : pack1 big f x = Ok b -> unpack_one big f b = Ok x.
Proof.
  intros H. unfold unpack_one. rewrite (unpack_pack big [f] [x] b); [reflexivity|].
  cbn [pack]. rewrite H. cbn [bind]. now rewrite app_nil_r.
Qed.

Lemma unpack_one_of_unsigned big f fu h u :
  fwidth f = fwidth fu -> fsigned fu = false ->
  unpack_one big fu h = Ok u -> unpack_one big f h = Ok (of_unsigned f u).
Proof.
  intros Hw Hu. unfold unpack_one, unpack, fmt_size. cbn [fold_right]. rewrite Hw.
  destruct (Nat.eqb (length h) (fwidth fu + 0)); [|discriminate]. cbn [bind unpack_go].
  intros H. injection H as <-. unfold unpack1. now rewrite (of_unsigned_unsigned fu), Hw.
Qed.

Lemma payload_slice_nat {A} (l : list A) a b :
  (a <= b <= length l)%nat -> pyslice l (Z.of_nat a) (Z.of_nat b) = firstn (b - a) (skipn a l).
Proof.
  intros H. cbv beta zeta delta [pyslice].
  rewrite !(proj2 (Z.ltb_ge _ 0)), !Z.min_l, Nat2Z.id by lia. f_equal. lia.
Qed.

Lemma payload_slice_mid {A} (pre x post : list A) :
  pyslice (pre ++ x ++ post) (Z.of_nat (length pre)) (Z.of_nat (length pre + length x)) = x.
Proof.
  rewrite payload_slice_nat by (rewrite !app_length; lia).
  now rewrite skipn_app_exact, firstn_app_exact by lia.
Qed.

Lemma handle_of_here pre x post n :
  length x = n -> handle_of (pre ++ x ++ post) (length pre + n) n = x.
Proof. intros <-. etransitivity; [|apply (payload_slice_mid pre x post)]. unfold handle_of. f_equal. lia. Qed.

Lemma bits_of_byte_0 n : bits_of_byte n 0 = repeat false n.
Proof. induction n as [|n IH]; [reflexivity|]. cbn [repeat]. now rewrite <- IH. Qed.

Lemma bits_of_byte_short b : forall n,
  (length b <= n)%nat -> bits_of_byte n (byte_of_bits b) = b ++ repeat false (n - length b).
Proof.
  induction b as [|x t IH]; intros n H.
  - rewrite Nat.sub_0_r. apply bits_of_byte_0.
  - destruct n as [|n]; cbn [length] in H; [lia|]. cbn [bits_of_byte byte_of_bits].
    assert (N.odd ((if x then 1 else 0) + 2 * byte_of_bits t) = x /\
            N.div2 ((if x then 1 else 0) + 2 * byte_of_bits t) = byte_of_bits t) as [-> ->]
      by (destruct x, (byte_of_bits t); split; reflexivity).
    now rewrite IH by lia.
Qed.

(* pack_bitstring and byte_of_bits are, as terms, PduSpec's spec_pack_bits and bits_value *)
Lemma byte_of_bits_byte b : (length b <= 8)%nat -> (byte_of_bits b < 256)%N.
Proof. exact (Pdu_bits_proofs.bits_value_lt b). Qed.

Lemma pack_bitstring_short b : (0 < length b < 8)%nat -> pack_bitstring b = [byte_of_bits b].
Proof. exact (Pdu_bits_proofs.spec_pack_short b). Qed.

Lemma pack_bitstring_app8 c t : length c = 8%nat -> pack_bitstring (c ++ t) = byte_of_bits c :: pack_bitstring t.
Proof. exact (Pdu_bits_proofs.spec_pack_group c t). Qed.

Lemma pack_bitstring_wfb b : wfb (pack_bitstring b) = true.
Proof. exact (Pdu_bits_proofs.spec_pack_bits_wfb b). Qed.

Lemma pack_bitstring_length b : length (pack_bitstring b) = Nat.div (length b + 7) 8.
Proof.
  induction b as [|b Hb|c t Hc IH] using list8_ind; [reflexivity| |].
  - rewrite pack_bitstring_short by assumption. cbn [length]. lia.
  - rewrite pack_bitstring_app8, app_length, Hc by assumption. cbn [length]. lia.
Qed.

Definition bit_pad (b : list bool) : list bool :=
  b ++ repeat false (Nat.modulo (8 - Nat.modulo (length b) 8) 8).

Lemma bit_pad_wf b : Nat.eqb (Nat.modulo (length b) 8) 0 = true -> bit_pad b = b.
Proof. intros H. apply Nat.eqb_eq in H. unfold bit_pad. rewrite H. apply app_nil_r. Qed.

Lemma unpack_pack_bitstring b : unpack_bitstring (pack_bitstring b) = bit_pad b.
Proof.
  unfold unpack_bitstring, bit_pad. induction b as [|b Hb|c t Hc IH] using list8_ind; [reflexivity| |].
  - rewrite pack_bitstring_short by assumption. cbn [flat_map]. rewrite app_nil_r, bits_of_byte_short by lia.
    now rewrite (Nat.mod_small (length b)), Nat.mod_small by lia.
  - rewrite pack_bitstring_app8 by assumption. cbn [flat_map].
    rewrite IH, bits_of_byte_short, app_length, Hc, Nat.sub_diag by lia. cbn [repeat].
    rewrite app_nil_r, <- app_assoc. now replace (Nat.modulo (8 + length t) 8) with (Nat.modulo (length t) 8) by lia.
Qed.

Definition spec_words : words_steps :=
  {| ws_div := 2; ws_up_prefix := "!"; ws_up_char := "H"; ws_rev_on := "<"; ws_word_char := "H" |}.

Definition spec_code : payload_code := {|
  pc_big := ">";
  pc_little := "<";
  pc_wc := [("b", 1); ("h", 2); ("e", 2); ("i", 4); ("l", 4); ("q", 8); ("f", 4); ("d", 8)];
  pc_add := [("add_8bit_uint", AddDirect "B"); ("add_16bit_uint", AddDirect "H"); ("add_32bit_uint", AddWords "I");
             ("add_64bit_uint", AddWords "Q"); ("add_8bit_int", AddDirect "b"); ("add_16bit_int", AddDirect "h");
             ("add_32bit_int", AddWords "i"); ("add_64bit_int", AddWords "q"); ("add_16bit_float", AddWords "e");
             ("add_32bit_float", AddWords "f"); ("add_64bit_float", AddWords "d"); ("add_bits", AddBits);
             ("add_string", AddString)];
  pc_dec := [("decode_8bit_uint", DecDirect 1 1 "B"); ("decode_16bit_uint", DecDirect 2 2 "H");
             ("decode_32bit_uint", DecWords 4 4 "I" "!"); ("decode_64bit_uint", DecWords 8 8 "Q" "!");
             ("decode_8bit_int", DecDirect 1 1 "b"); ("decode_16bit_int", DecDirect 2 2 "h");
             ("decode_32bit_int", DecWords 4 4 "i" "!"); ("decode_64bit_int", DecWords 8 8 "q" "!");
             ("decode_16bit_float", DecWords 2 2 "e" "!"); ("decode_32bit_float", DecWords 4 4 "f" "!");
             ("decode_64bit_float", DecWords 8 8 "d" "!"); ("decode_bits", DecBits 1 1); ("decode_string", DecString)];
  pc_net_prefix := "!";
  pc_pack_words := spec_words;
  pc_unpack_words := spec_words;
  pc_pad_byte := 0%N;
  pc_pad_mod := 2;
  pc_chunk_width := 2;
  pc_chunk_step := 2;
  pc_reg_prefix := "!";
  pc_reg_char := "H";
  pc_reg_repack_char := "H";
  pc_from_reg_prefix := "!";
  pc_from_reg_char := "H";
  pc_coil_bits := 16;
  pc_from_coils_mod := 8;
  pc_from_coils_passes_wordorder := false
|}.

(* The tie to the source: what the translator extracts from payload.py / constants.py is
   exactly the layout the method names promise.  Any change of a format
   character, width, pointer increment, word-order test, pad, register format … breaks
   this [reflexivity]. *)
Lemma code_is_spec : GenPayload.code = spec_code.
Proof. reflexivity. Qed.

Lemma prefix_big_endian e : prefix_big (endian_str spec_code e) = Ok (is_big e).
Proof. destruct e; reflexivity. Qed.

(* the struct field each type name promises *)
Definition kind_fmt (k : kind) : fmtc :=
  match k with
  | KU8 => FB | KU16 => FH | KU32 => FI | KU64 => FQ
  | KI8 => Fb | KI16 => Fh | KI32 => Fi | KI64 => Fq
  | KF16 => FH | KF32 => FI | KF64 => FQ
  end.

(* its format character in the add_* / decode_* methods *)
Definition kind_char (k : kind) : string :=
  match k with
  | KU8 => "B" | KU16 => "H" | KU32 => "I" | KU64 => "Q"
  | KI8 => "b" | KI16 => "h" | KI32 => "i" | KI64 => "q"
  | KF16 => "e" | KF32 => "f" | KF64 => "d"
  end.

(* types that go through _pack_words / _unpack_words *)
Definition kind_words (k : kind) : bool :=
  match k with KU8 | KU16 | KI8 | KI16 => false | _ => true end.

Definition unsigned_of (k : kind) : kind :=
  match k with KI8 => KU8 | KI16 => KU16 | KI32 => KU32 | KI64 => KU64 | _ => k end.

Lemma add_method k x :
  get_method (add_name (VNum k x)) (pc_add spec_code) =
  Ok ((if kind_words k then AddWords else AddDirect) (kind_char k)).
Proof. destruct k; reflexivity. Qed.

Lemma dec_method k :
  get_method (dec_name (TNum k)) (pc_dec spec_code) =
  Ok (if kind_words k then DecWords (kind_width k) (kind_width k) (kind_char k) "!"
      else DecDirect (kind_width k) (kind_width k) (kind_char k)).
Proof. destruct k; reflexivity. Qed.

Lemma fmt_of_kind_char k : fmt_of_char (kind_char k) = Ok (kind_fmt k).
Proof. destruct k; reflexivity. Qed.

Lemma wc_kind k :
  kind_words k = true -> wc_get spec_code (lower_char (kind_char k)) = Ok (Z.of_nat (kind_width k)).
Proof. destruct k; try discriminate; reflexivity. Qed.

Lemma kind_fmt_width k : fwidth (kind_fmt k) = kind_width k.
Proof. destruct k; reflexivity. Qed.

Lemma kind_fmt_range k x : in_range (kind_fmt k) x = in_kind_range k x.
Proof. destruct k; reflexivity. Qed.

Lemma kind_fmt_signed k : fsigned (kind_fmt k) = kind_signed k.
Proof. destruct k; reflexivity. Qed.

Lemma pow256_kind k : pow256 (fwidth (kind_fmt k)) = 2 ^ (8 * Z.of_nat (kind_width k)).
Proof. destruct k; reflexivity. Qed.

Lemma kind_width_even k : (2 <= kind_width k)%nat -> kind_width k = (2 * Nat.div2 (kind_width k))%nat.
Proof. destruct k; cbn; lia. Qed.

Lemma kind_words_width k : kind_words k = true -> (2 <= kind_width k)%nat.
Proof. destruct k; cbn; (discriminate || lia). Qed.

Lemma unsigned_of_width k : kind_width (unsigned_of k) = kind_width k.
Proof. destruct k; reflexivity. Qed.

Lemma unsigned_of_words k : kind_words (unsigned_of k) = kind_words k.
Proof. destruct k; reflexivity. Qed.

Lemma net_bytes_length k x : length (net_bytes k x) = kind_width k.
Proof. unfold net_bytes. now rewrite rev_length, le_bytes_length. Qed.

Lemma net_bytes_wfb k x : wfb (net_bytes k x) = true.
Proof. unfold net_bytes. rewrite wfb_rev. apply le_bytes_wfb. Qed.

Lemma net_bytes_even k x : (2 <= kind_width k)%nat -> length (net_bytes k x) = (2 * Nat.div2 (kind_width k))%nat.
Proof. intros H. rewrite net_bytes_length. apply kind_width_even, H. Qed.

Lemma to_unsigned_mod k x :
  in_kind_range k x = true ->
  to_unsigned (kind_fmt k) x = x mod 2 ^ (8 * Z.of_nat (kind_width k)).
Proof.
  unfold in_kind_range, to_unsigned. rewrite pow256_kind.
  set (m := 2 ^ (8 * Z.of_nat (kind_width k))). intros H.
  destruct (x <? 0) eqn:E; [apply (Z.mod_unique_pos x m (-1))|apply (Z.mod_unique_pos x m 0)];
    destruct (kind_signed k); lia.
Qed.

Lemma pack1_kind big k x :
  pack1 big (kind_fmt k) x =
  if in_kind_range k x then Ok (if big then net_bytes k x else rev (net_bytes k x)) else Raise StructError.
Proof.
  unfold pack1, net_bytes. rewrite kind_fmt_range. destruct (in_kind_range k x) eqn:H; [|reflexivity].
  rewrite (to_unsigned_mod k x H), kind_fmt_width. destruct big; now rewrite ?rev_involutive.
Qed.

Lemma pack1_net big k x :
  in_kind_range k x = true ->
  pack1 big (kind_fmt k) x = Ok (if big then net_bytes k x else rev (net_bytes k x)).
Proof. intros H. now rewrite pack1_kind, H. Qed.

Lemma run_words_image bo wo k bs :
  kind_words k = true -> length bs = kind_width k -> wfb bs = true ->
  run_words spec_code spec_words bo wo (kind_char k) bs = Ok (image bo wo bs).
Proof.
  intros Hk Hl Hb. pose proof (kind_width_even k (kind_words_width k Hk)) as He.
  set (n := Nat.div2 (kind_width k)) in He. rewrite He in Hl.
  unfold run_words. rewrite (wc_kind k Hk). cbn [bind spec_words ws_div ws_up_prefix ws_up_char ws_rev_on ws_word_char].
  change (2 =? 0) with false. cbv iota.
  replace (Z.to_nat (Z.of_nat (kind_width k) / 2)) with n by lia.
  change (prefix_big "!") with (@Ok bool true). change (fmt_of_char "H") with (@Ok fmtc FH). cbn [bind].
  rewrite (unpack_repeat_FH n), prefix_big_endian by exact Hl. cbn [bind].
  replace (if String.eqb (endian_str spec_code wo) "<" then rev (map word_val (words16 bs)) else map word_val (words16 bs))
    with (map word_val (if is_big wo then words16 bs else rev (words16 bs))) by (destruct wo; [|apply map_rev]; reflexivity).
  rewrite map_res_pack_img, image_img_words; [reflexivity|apply words16_len2|].
  now rewrite (forallb_wfb_words16 n bs Hl).
Qed.

Definition enc_bytes (bo wo : endian) (k : kind) (x : Z) : bytes :=
  if kind_words k then image bo wo (net_bytes k x)
  else if is_big bo then net_bytes k x else rev (net_bytes k x).

Lemma add_num_spec bo wo k x :
  add_value spec_code bo wo (VNum k x) =
  if in_kind_range k x then Ok (enc_bytes bo wo k x) else Raise StructError.
Proof.
  unfold add_value, enc_bytes. rewrite add_method. destruct (kind_words k) eqn:Hk; cbn [bind run_add].
  - unfold pack_words. change (prefix_big (pc_net_prefix spec_code)) with (@Ok bool true). cbn [bind].
    rewrite fmt_of_kind_char. cbn [bind]. rewrite pack1_kind. destruct (in_kind_range k x); [|reflexivity].
    cbn [bind]. apply run_words_image; auto using net_bytes_length, net_bytes_wfb.
  - rewrite prefix_big_endian. cbn [bind]. rewrite fmt_of_kind_char. cbn [bind]. apply pack1_kind.
Qed.

Lemma enc_bytes_length bo wo k x : length (enc_bytes bo wo k x) = kind_width k.
Proof.
  unfold enc_bytes. destruct (kind_words k) eqn:Hk.
  - rewrite (image_length (net_bytes_even k x (kind_words_width k Hk))). apply net_bytes_length.
  - destruct bo; cbn [is_big]; rewrite ?rev_length; apply net_bytes_length.
Qed.

Lemma enc_bytes_wfb bo wo k x : wfb (enc_bytes bo wo k x) = true.
Proof.
  unfold enc_bytes. destruct (kind_words k) eqn:Hk.
  - rewrite (image_wfb (net_bytes_even k x (kind_words_width k Hk))). apply net_bytes_wfb.
  - destruct bo; cbn [is_big]; rewrite ?wfb_rev; apply net_bytes_wfb.
Qed.

(* the bytes a decode_<kind>() call hands to struct.unpack *)
Definition num_handle (bo wo : endian) (k : kind) (payload : bytes) (ptr : nat) : res bytes :=
  let h := handle_of payload (ptr + kind_width k) (kind_width k) in
  if kind_words k then run_words spec_code spec_words bo wo (kind_char k) h else Ok h.

Lemma decode1_num bo wo k payload ptr :
  decode1 spec_code bo wo (TNum k) payload ptr =
  do h <- num_handle bo wo k payload ptr;
  do x <- unpack_one (kind_words k || is_big bo) (kind_fmt k) h;
  Ok (VNum k x, (ptr + kind_width k)%nat).
Proof.
  unfold decode1, num_handle. rewrite dec_method. destruct (kind_words k); cbn [bind run_dec_num orb].
  - change (pc_unpack_words spec_code) with spec_words.
    destruct (run_words _ _ _ _ _ _) as [h|]; [|reflexivity]. cbn [bind].
    change (prefix_big "!") with (@Ok bool true). rewrite fmt_of_kind_char. cbn [bind].
    destruct (unpack_one _ _ _); reflexivity.
  - rewrite prefix_big_endian, fmt_of_kind_char. cbn [bind]. destruct (unpack_one _ _ _); reflexivity.
Qed.

Lemma dec_num_spec bo wo k x pre post :
  in_kind_range k x = true ->
  decode1 spec_code bo wo (TNum k) (pre ++ enc_bytes bo wo k x ++ post) (length pre) =
  Ok (VNum k x, (length pre + kind_width k)%nat).
Proof.
  intros Hr. rewrite decode1_num. unfold num_handle. rewrite handle_of_here by apply enc_bytes_length.
  unfold enc_bytes. destruct (kind_words k) eqn:Hk; cbn [orb].
  - pose proof (net_bytes_even k x (kind_words_width k Hk)) as He.
    rewrite run_words_image, (image_involutive He);
      [|exact Hk|now rewrite (image_length He), net_bytes_length
       |rewrite (image_wfb He); apply net_bytes_wfb].
    cbn [bind]. now rewrite (unpack_one_pack1 _ _ _ _ (pack1_net true k x Hr)).
  - cbn [bind]. now rewrite (unpack_one_pack1 _ _ _ _ (pack1_net (is_big bo) k x Hr)).
Qed.

(* what the decoder returns for a value: itself, bit groups zero padded to whole bytes *)
Definition decoded (v : value) : value :=
  match v with VBits b => VBits (bit_pad b) | _ => v end.

Lemma decoded_wf v : wf_value v = true -> decoded v = v.
Proof. destruct v; cbn [wf_value decoded]; intros H; [reflexivity| |reflexivity]. now rewrite bit_pad_wf. Qed.

(* the domain of the builder: numbers in range, strings of bytes, bit lists of any length *)
Definition in_domain (v : value) : bool :=
  match v with VNum k x => in_kind_range k x | VBits _ => true | VStr s => wfb s end.

Lemma wf_in_domain v : wf_value v = true -> in_domain v = true.
Proof. destruct v; cbn; auto. Qed.

Definition enc_value (bo wo : endian) (v : value) : bytes :=
  match v with VNum k x => enc_bytes bo wo k x | VBits b => pack_bitstring b | VStr s => s end.

Lemma add_value_spec bo wo v : in_domain v = true -> add_value spec_code bo wo v = Ok (enc_value bo wo v).
Proof. destruct v; cbn [in_domain]; intros H; [now rewrite add_num_spec, H|reflexivity..]. Qed.

Lemma enc_value_wfb bo wo v : in_domain v = true -> wfb (enc_value bo wo v) = true.
Proof. destruct v; cbn [in_domain enc_value]; auto using enc_bytes_wfb, pack_bitstring_wfb. Qed.

(* 1 1: pointer increment and slice width of decode_bits in spec_code *)
Lemma run_dec_bits_bytes bs : forall pre post,
  run_dec_bits 1 1 (length bs) (pre ++ bs ++ post) (length pre) =
  (unpack_bitstring bs, (length pre + length bs)%nat).
Proof.
  induction bs as [|x t IH]; intros pre post; cbn [length run_dec_bits]; [now rewrite Nat.add_0_r|].
  rewrite (handle_of_here pre [x] (t ++ post)) by reflexivity.
  change (pre ++ (x :: t) ++ post) with (pre ++ [x] ++ t ++ post). rewrite app_assoc.
  replace (length pre + 1)%nat with (length (pre ++ [x])) by (rewrite app_length; reflexivity).
  rewrite IH, app_length. unfold unpack_bitstring. cbn [flat_map length]. rewrite app_nil_r. f_equal. lia.
Qed.

Lemma decode1_enc bo wo v pre post :
  in_domain v = true ->
  decode1 spec_code bo wo (type_of v) (pre ++ enc_value bo wo v ++ post) (length pre) =
  Ok (decoded v, (length pre + length (enc_value bo wo v))%nat).
Proof.
  destruct v as [k x|bs|s]; cbn [in_domain type_of enc_value decoded]; intros H.
  - rewrite enc_bytes_length. apply dec_num_spec, H.
  - unfold decode1. cbn [dec_name].
    change (get_method "decode_bits" (pc_dec spec_code)) with (@Ok dec_shape (DecBits 1 1)). cbn [bind].
    now rewrite <- pack_bitstring_length, run_dec_bits_bytes, unpack_pack_bitstring.
  - unfold decode1. cbn [dec_name].
    change (get_method "decode_string" (pc_dec spec_code)) with (@Ok dec_shape DecString). cbn [bind].
    now rewrite handle_of_here.
Qed.

Definition enc_values (bo wo : endian) (vs : list value) : bytes := flat_map (enc_value bo wo) vs.

Lemma to_string_spec bo wo vs :
  forallb in_domain vs = true -> to_string spec_code bo wo vs = Ok (enc_values bo wo vs).
Proof.
  induction vs as [|v vs IH]; [reflexivity|]. cbn [forallb]. intros [Hv Hvs]%andb_true_iff.
  cbn [to_string]. now rewrite (add_value_spec _ _ _ Hv), (IH Hvs).
Qed.

Lemma enc_values_wfb bo wo vs : forallb in_domain vs = true -> wfb (enc_values bo wo vs) = true.
Proof.
  induction vs as [|v vs IH]; [reflexivity|]. cbn [forallb]. intros [Hv Hvs]%andb_true_iff.
  change (enc_values bo wo (v :: vs)) with (enc_value bo wo v ++ enc_values bo wo vs).
  now rewrite wfb_app, (enc_value_wfb _ _ _ Hv), (IH Hvs).
Qed.

Lemma decode_from_enc bo wo vs : forall pre post,
  forallb in_domain vs = true ->
  decode_from spec_code bo wo (types vs) (pre ++ enc_values bo wo vs ++ post) (length pre) =
  Ok (map decoded vs, (length pre + length (enc_values bo wo vs))%nat).
Proof.
  induction vs as [|v vs IH]; intros pre post; cbn [forallb]; [now rewrite Nat.add_0_r|].
  intros [Hv Hvs]%andb_true_iff. cbn [types map decode_from enc_values flat_map].
  rewrite <- app_assoc, (decode1_enc bo wo v pre _ Hv). cbn [bind].
  rewrite (app_assoc pre), <- app_length. fold (types vs) (enc_values bo wo vs).
  rewrite (IH _ post Hvs). cbn [bind]. rewrite !app_length. do 2 f_equal. lia.
Qed.

Lemma map_decoded_wf vs : wf_values vs = true -> map decoded vs = vs.
Proof.
  intros H. rewrite <- (map_id vs) at 2. apply map_ext_in. intros v Hv. apply decoded_wf.
  unfold wf_values in H. rewrite forallb_forall in H. auto.
Qed.

Lemma wf_values_domain vs : wf_values vs = true -> forallb in_domain vs = true.
Proof. unfold wf_values. rewrite !forallb_forall. auto using wf_in_domain. Qed.

Theorem roundtrip_general bo wo vs post :
  forallb in_domain vs = true ->
  exists s, to_string spec_code bo wo vs = Ok s /\
            decode_seq spec_code bo wo (types vs) (s ++ post) = Ok (map decoded vs, length s).
Proof.
  intros H. exists (enc_values bo wo vs). split; [exact (to_string_spec bo wo vs H)|].
  exact (decode_from_enc bo wo vs [] post H).
Qed.

Theorem roundtrip_spec bo wo vs :
  wf_values vs = true ->
  exists s, to_string spec_code bo wo vs = Ok s /\
            decode_seq spec_code bo wo (types vs) s = Ok (vs, length s).
Proof.
  intros H. destruct (roundtrip_general bo wo vs [] (wf_values_domain vs H)) as (s & Hs & Hd).
  exists s. split; [exact Hs|]. now rewrite app_nil_r, map_decoded_wf in Hd.
Qed.

(* the pad build() appends: one zero byte iff the length is odd *)
Definition reg_pad (s : bytes) : bytes := repeat 0%N (Nat.modulo (length s) 2).

Lemma reg_pad_cases s : reg_pad s = if Nat.odd (length s) then [0%N] else [].
Proof.
  unfold reg_pad. rewrite <- Nat.bit0_mod, Nat.bit0_odd. destruct (Nat.odd (length s)); reflexivity.
Qed.

Lemma reg_pad_wfb s : wfb (reg_pad s) = true.
Proof. rewrite reg_pad_cases. destruct (Nat.odd (length s)); reflexivity. Qed.

Lemma reg_pad_even n s : length s = (2 * n)%nat -> reg_pad s = [].
Proof. intros H. unfold reg_pad. now rewrite H, Nat.mul_comm, Nat.mod_mul. Qed.

Lemma padded_even s : length (s ++ reg_pad s) = (2 * Nat.div (length s + 1) 2)%nat.
Proof. unfold reg_pad. rewrite app_length, repeat_length. lia. Qed.

(* i + 2 and k * 2: the chunk width and step of build() in spec_code *)
Lemma slices_words16 n : forall (l pre : bytes) m,
  length l = (2 * n)%nat -> length pre = (2 * m)%nat ->
  map (fun i => pyslice (pre ++ l) (Z.of_nat i) (Z.of_nat (i + 2))) (map (fun k => (k * 2)%nat) (seq m n)) = words16 l.
Proof.
  induction n as [|n IH]; intros [|a [|b t]] pre m Hl Hp; cbn [length] in Hl; [reflexivity|lia..|].
  cbn [seq map words16]. change (a :: b :: t) with ([a; b] ++ t). f_equal.
  - replace (m * 2)%nat with (length pre) by lia. apply (payload_slice_mid pre [a; b] t).
  - rewrite app_assoc. apply (IH t (pre ++ [a; b]) (S m)); [lia|]. rewrite app_length. cbn [length]. lia.
Qed.

Lemma build_chunks_spec s : build_chunks spec_code s = Ok (words16 (s ++ reg_pad s)).
Proof.
  unfold build_chunks. cbn [spec_code pc_pad_mod pc_chunk_step pc_pad_byte pc_chunk_width Nat.eqb].
  f_equal. fold (reg_pad s). unfold range_step.
  replace (Nat.div (length s + 2 - 1) 2) with (Nat.div (length s + 1) 2) by (f_equal; lia).
  apply (slices_words16 (Nat.div (length s + 1) 2) (s ++ reg_pad s) [] 0%nat); [apply padded_even|reflexivity].
Qed.

(* registers of a payload = big-endian reading of its 16-bit words *)
Definition regs_of (s : bytes) : list Z :=
  map (fun w => match w with [hi; lo] => rd_be16 hi lo | _ => 0 end) (words16 s).

Lemma word_val_be a b : word_val [a; b] = rd_be16 a b.
Proof. unfold word_val, unpack1, of_unsigned, rd_be16. cbn [fsigned andb rev app le_value]. lia. Qed.

Lemma regs_of_word_val s : map word_val (words16 s) = regs_of s.
Proof.
  unfold regs_of. apply map_ext_in. intros w Hw.
  pose proof (words16_len2 s) as H. rewrite Forall_forall in H. specialize (H w Hw).
  destruct w as [|a [|b [|c t]]]; try discriminate H. apply word_val_be.
Qed.

Lemma to_registers_spec bo s :
  to_registers spec_code bo false s = Ok (regs_of (s ++ reg_pad s)).
Proof.
  unfold to_registers. rewrite build_chunks_spec. cbn [bind].
  change (prefix_big (pc_reg_prefix spec_code)) with (@Ok bool true).
  change (fmt_of_char (pc_reg_char spec_code)) with (@Ok fmtc FH). cbn [bind].
  rewrite <- regs_of_word_val. apply map_res_unpack_one_FH, words16_len2.
Qed.

Lemma from_registers_spec n s' :
  length s' = (2 * n)%nat -> wfb s' = true ->
  from_registers spec_code (regs_of s') = Ok s'.
Proof.
  intros Hl Hw. unfold from_registers. rewrite <- regs_of_word_val.
  change (prefix_big (pc_from_reg_prefix spec_code)) with (@Ok bool true).
  change (fmt_of_char (pc_from_reg_char spec_code)) with (@Ok fmtc FH). cbn [bind].
  rewrite map_res_pack1_FH; [|apply words16_len2|now rewrite (forallb_wfb_words16 n)].
  cbn [bind]. f_equal. apply (concat_words16 n), Hl.
Qed.

Theorem registers_roundtrip bo s :
  wfb s = true ->
  exists regs, to_registers spec_code bo false s = Ok regs /\
               regs = regs_of (s ++ (if Nat.odd (length s) then [0%N] else [])) /\
               from_registers spec_code regs = Ok (s ++ (if Nat.odd (length s) then [0%N] else [])).
Proof.
  intros Hw. rewrite <- reg_pad_cases. eexists. split; [apply to_registers_spec|]. split; [reflexivity|].
  apply (from_registers_spec _ _ (padded_even s)). now rewrite wfb_app, Hw, reg_pad_wfb.
Qed.

Theorem via_registers_general bo wo vs :
  forallb in_domain vs = true ->
  exists s regs, to_string spec_code bo wo vs = Ok s /\
    to_registers spec_code bo false s = Ok regs /\
    from_registers spec_code regs = Ok (s ++ reg_pad s) /\
    decode_seq spec_code bo wo (types vs) (s ++ reg_pad s) = Ok (map decoded vs, length s).
Proof.
  intros H. pose proof (to_string_spec bo wo vs H) as Hs. set (s := enc_values bo wo vs) in *.
  destruct (registers_roundtrip bo s (enc_values_wfb bo wo vs H)) as (regs & Hr & _ & Hf).
  rewrite <- reg_pad_cases in Hf. exists s, regs. repeat split; try assumption.
  exact (decode_from_enc bo wo vs [] (reg_pad s) H).
Qed.

Theorem via_registers_spec bo wo vs :
  wf_values vs = true ->
  exists s regs p, to_string spec_code bo wo vs = Ok s /\
    to_registers spec_code bo false s = Ok regs /\
    from_registers spec_code regs = Ok p /\
    p = s ++ (if Nat.odd (length s) then [0%N] else []) /\
    decode_seq spec_code bo wo (types vs) p = Ok (vs, length s).
Proof.
  intros H. destruct (via_registers_general bo wo vs (wf_values_domain vs H)) as (s & regs & Hs & Hr & Hf & Hd).
  exists s, regs, (s ++ reg_pad s). rewrite map_decoded_wf in Hd by exact H.
  repeat split; try assumption. now rewrite reg_pad_cases.
Qed.

Lemma image_word bo wo a b : image bo wo [a; b] = if is_big bo then [a; b] else [b; a].
Proof. destruct bo, wo; reflexivity. Qed.

Theorem image_spec bo wo k x :
  (2 <= kind_width k)%nat -> in_kind_range k x = true ->
  add_value spec_code bo wo (VNum k x) = Ok (image bo wo (net_bytes k x)).
Proof.
  intros Hw Hr. rewrite add_num_spec, Hr. unfold enc_bytes. destruct (kind_words k) eqn:Hk; [reflexivity|].
  assert (H2 : kind_width k = 2%nat) by (destruct k; try discriminate Hk; try reflexivity; cbn in Hw; lia).
  pose proof (net_bytes_length k x) as Hl. rewrite H2 in Hl.
  destruct (net_bytes k x) as [|a [|b [|c t]]]; try discriminate Hl. now rewrite image_word.
Qed.

Theorem signed_bytes k x :
  net_bytes k x = net_bytes (unsigned_of k) (x mod 2 ^ (8 * Z.of_nat (kind_width k))).
Proof.
  unfold net_bytes. rewrite unsigned_of_width. now rewrite Z.mod_mod by (apply Z.pow_nonzero; lia).
Qed.

Lemma in_kind_range_unsigned_mod k x :
  in_kind_range (unsigned_of k) (x mod 2 ^ (8 * Z.of_nat (kind_width k))) = true.
Proof.
  unfold in_kind_range. rewrite unsigned_of_width.
  assert (Hs : kind_signed (unsigned_of k) = false) by (destruct k; reflexivity). rewrite Hs.
  set (m := 2 ^ (8 * Z.of_nat (kind_width k))).
  assert (Hm : 0 < m) by (apply Z.pow_pos_nonneg; lia).
  pose proof (Z.mod_pos_bound x m Hm). lia.
Qed.

Lemma num_handle_unsigned bo wo k : num_handle bo wo (unsigned_of k) = num_handle bo wo k.
Proof. destruct k; reflexivity. Qed.

Theorem decode1_of_unsigned bo wo k payload ptr u p :
  decode1 spec_code bo wo (TNum (unsigned_of k)) payload ptr = Ok (VNum (unsigned_of k) u, p) ->
  decode1 spec_code bo wo (TNum k) payload ptr = Ok (VNum k (of_unsigned (kind_fmt k) u), p).
Proof.
  rewrite !decode1_num, num_handle_unsigned, unsigned_of_width, unsigned_of_words.
  destruct (num_handle bo wo k payload ptr) as [h|]; [|discriminate]. cbn [bind].
  destruct (unpack_one _ (kind_fmt (unsigned_of k)) h) as [y|] eqn:E; [|discriminate]. cbn [bind].
  intros H. injection H as <- <-.
  rewrite (unpack_one_of_unsigned _ (kind_fmt k) (kind_fmt (unsigned_of k)) h y);
    [reflexivity|now rewrite !kind_fmt_width, unsigned_of_width|destruct k; reflexivity|exact E].
Qed.

Notation code := GenPayload.code.

(* the register round trip under the builder's repack flag (non-default): to_registers(repack=True)
   reads the registers with the builder's byte order, fromRegisters always writes them big-endian *)
Definition via_registers_statement (repack : bool) (bo wo : endian) (vs : list value) : Prop :=
  exists s regs p, to_string code bo wo vs = Ok s /\
    to_registers code bo repack s = Ok regs /\
    from_registers code regs = Ok p /\
    decode_seq code bo wo (types vs) p = Ok (vs, length s).

Definition msb8 (x : N) : list bool := bits_msb 8 (Z.of_N x).

Lemma bits_msb_app m n v : bits_msb (m + n) v = bits_msb m (v / 2 ^ Z.of_nat n) ++ bits_msb n v.
Proof.
  induction m as [|m IH]; [reflexivity|]. cbn [plus bits_msb app]. rewrite IH, Z.div_pow2_bits by lia.
  do 2 f_equal. lia.
Qed.

Lemma bits_msb_low n u v : u mod 2 ^ Z.of_nat n = v mod 2 ^ Z.of_nat n -> bits_msb n u = bits_msb n v.
Proof.
  intros H. enough (Hk : forall k, (k <= n)%nat -> bits_msb k u = bits_msb k v) by now apply Hk.
  induction k as [|k IH]; intros Hk; [reflexivity|]. cbn [bits_msb]. rewrite IH by lia. f_equal.
  now rewrite <- (Z.mod_pow2_bits_low u (Z.of_nat n)), H, Z.mod_pow2_bits_low by lia.
Qed.

Lemma bits_msb_word a b :
  wfb [a; b] = true -> bits_msb 16 (word_val [a; b]) = msb8 a ++ msb8 b.
Proof.
  intros (Ha & (Hb & _)%wfb_cons)%wfb_cons. rewrite word_val_be. unfold rd_be16, msb8.
  rewrite (bits_msb_app 8 8). change (2 ^ Z.of_nat 8) with 256. f_equal; [f_equal; lia|].
  apply bits_msb_low. change (2 ^ Z.of_nat 8) with 256. lia.
Qed.

Lemma to_coils_bytes n s :
  length s = (2 * n)%nat -> wfb s = true ->
  to_coils spec_code (regs_of s) = flat_map msb8 s.
Proof.
  rewrite <- regs_of_word_val. unfold to_coils. change (pc_coil_bits spec_code) with 16%nat. revert n.
  induction s as [|a|a b t IH] using list2_ind; intros n Hl Hw; cbn [length] in Hl; [reflexivity|lia|].
  change (a :: b :: t) with ([a; b] ++ t) in Hw. rewrite wfb_app in Hw. apply andb_true_iff in Hw as [Hab Ht].
  cbn [words16 map flat_map]. rewrite (bits_msb_word a b Hab), (IH (n - 1)%nat) by (lia || assumption).
  now rewrite <- app_assoc.
Qed.

Lemma msb8_explicit x : exists c0 c1 c2 c3 c4 c5 c6 c7, msb8 x = [c0; c1; c2; c3; c4; c5; c6; c7].
Proof. unfold msb8. cbn [bits_msb]. repeat eexists. Qed.

Lemma chunks8_flat_map_msb8 s : chunks8 (flat_map msb8 s) = map msb8 s.
Proof.
  induction s as [|x t IH]; [reflexivity|]. cbn [flat_map map].
  destruct (msb8_explicit x) as (c0 & c1 & c2 & c3 & c4 & c5 & c6 & c7 & E). rewrite E.
  cbn [app chunks8]. now rewrite IH.
Qed.

Lemma length_flat_map_msb8 s : length (flat_map msb8 s) = (8 * length s)%nat.
Proof.
  induction s as [|x t IH]; [reflexivity|]. cbn [flat_map]. rewrite app_length, IH.
  destruct (msb8_explicit x) as (c0 & c1 & c2 & c3 & c4 & c5 & c6 & c7 & E). rewrite E. cbn [length]. lia.
Qed.

(* bits_of_byte lists the bits N.testbit names, lowest first; format(.., 'b') lists them highest first *)
Lemma bits_of_byte_snoc n : forall x, bits_of_byte (S n) x = bits_of_byte n x ++ [N.testbit x (N.of_nat n)].
Proof.
  induction n as [|n IH]; intros x; [cbn; now rewrite N.bit0_odd|].
  change (bits_of_byte (S (S n)) x) with (N.odd x :: bits_of_byte (S n) (N.div2 x)).
  now rewrite IH, Nat2N.inj_succ, N.testbit_succ_r_div2 by apply N.le_0_l.
Qed.

Lemma rev_bits_msb n x : rev (bits_msb n (Z.of_N x)) = bits_of_byte n x.
Proof.
  induction n as [|n IH]; [reflexivity|]. cbn [bits_msb rev].
  now rewrite IH, bits_of_byte_snoc, <- nat_N_Z, Z.testbit_of_N.
Qed.

Lemma byte_of_bits_of_byte n : forall x, (x < 2 ^ N.of_nat n)%N -> byte_of_bits (bits_of_byte n x) = x.
Proof.
  induction n as [|n IH]; intros x Hx; [cbn in *; lia|].
  rewrite Nat2N.inj_succ, N.pow_succ_r' in Hx. cbn [bits_of_byte byte_of_bits].
  rewrite IH by (rewrite N.div2_div; lia). rewrite (N.div2_odd x) at 3. unfold N.b2n. lia.
Qed.

Lemma pack_rev_msb8 x : (x < 256)%N -> pack_bitstring (rev (msb8 x)) = [x].
Proof.
  intros Hx. unfold msb8. rewrite rev_bits_msb.
  change (pack_bitstring (bits_of_byte 8 x)) with [byte_of_bits (bits_of_byte 8 x)].
  now rewrite byte_of_bits_of_byte.
Qed.

Theorem from_coils_to_coils n s :
  length s = (2 * n)%nat -> wfb s = true ->
  from_coils spec_code (to_coils spec_code (regs_of s)) = Ok s.
Proof.
  intros Hl Hw. rewrite (to_coils_bytes n s Hl Hw). unfold from_coils.
  change (pc_from_coils_mod spec_code) with 8%nat. cbn [Nat.eqb].
  rewrite length_flat_map_msb8, Nat.mul_comm, Nat.mod_mul by lia.
  cbn [repeat app]. rewrite chunks8_flat_map_msb8. f_equal.
  clear Hl. induction s as [|x t IH]; [reflexivity|]. apply wfb_cons in Hw as [Hx Ht].
  cbn [map flat_map]. now rewrite (pack_rev_msb8 x Hx), (IH Ht).
Qed.

(* to_coils -> fromCoils (not named by the property text): fromCoils drops its wordorder argument,
   the decoder it returns has word order Big *)
Definition via_coils (bo wo : endian) (vs : list value) : res (list value * nat) :=
  do s <- to_string code bo wo vs;
  do regs <- to_registers code bo false s;
  do p <- from_coils code (to_coils code regs);
  decode_seq code bo (from_coils_wordorder code wo) (types vs) p.

Theorem via_coils_partial bo vs :
  wf_values vs = true ->
  exists s, to_string code bo Big vs = Ok s /\ via_coils bo Big vs = Ok (vs, length s).
Proof.
  intros H. pose proof (wf_values_domain vs H) as Hd. unfold via_coils. rewrite code_is_spec.
  destruct (via_registers_general bo Big vs Hd) as (s & regs & Hs & Hr & _ & Hdec).
  exists s. split; [exact Hs|]. rewrite Hs. cbn [bind]. rewrite Hr. cbn [bind].
  rewrite to_registers_spec in Hr. injection Hr as <-.
  rewrite (from_coils_to_coils _ _ (padded_even s)).
  - cbn [bind]. change (from_coils_wordorder spec_code Big) with Big.
    now rewrite Hdec, map_decoded_wf.
  - rewrite (to_string_spec bo Big vs Hd) in Hs. injection Hs as <-.
    now rewrite wfb_app, reg_pad_wfb, enc_values_wfb.
Qed.
