(* DevInfo_proofs.v — lemmas about the Read Device Identification model instantiated with the
   GENERATED record Generated/GenDevInfo.code (pymodbus/mei_message.py, device.py): what its
   expressions and tables evaluate to, the wire format, paging and the request chain, the client's
   decoder, configuration histories.  The generated constants enter by conversion wherever a literal
   14, 131, 0, 255 or 247 stands for them; a changed constant, comparison or range bound breaks a proof. *)
From PM.theories Require Import Base Expr DevInfo.
From PM.Generated Require Import GenDevInfo.
From PM.proofs Require Import Base_proofs.
From Coq Require Import Sorting.Sorted.
Open Scope string_scope.
Open Scope list_scope.
Open Scope Z_scope.

Lemma space0_eq : space0 code = 247.
Proof. reflexivity. Qed.

Lemma space_after_eq space n :
  eval (env_of [("self.space_left", space); ("len(data)", n)]) (c_space_after code) = space - (2 + n).
Proof. reflexivity. Qed.

Lemma out_of_space_eq s :
  beval (env_of [("self.space_left", s)]) (c_out_of_space code) = (s <=? 0).
Proof. change (beval _ _) with (z2b (b2z (s <=? 0))). apply z2b_b2z. Qed.

Lemma page_objs_cons space k v t :
  page_objs code space ((k, v) :: t) =
  if space - (2 + blen v) <=? 0 then ([], Some k)
  else let '(acc, oos) := page_objs code (space - (2 + blen v)) t in ((k, v) :: acc, oos).
Proof. cbn [page_objs]. rewrite space_after_eq, out_of_space_eq. reflexivity. Qed.

Lemma reject_object_id_eq oid :
  beval (env_of [("self.object_id", oid)]) (c_reject_object_id code) = negb ((0 <=? oid) && (oid <=? 255)).
Proof.
  change (beval _ _) with (z2b (b2z (negb (z2b (b2z ((0 <=? oid) && (oid <=? 255))))))). now rewrite !z2b_b2z.
Qed.

Lemma reject_read_code_eq c :
  beval (env_of [("self.read_code", c)]) (c_reject_read_code code) = negb ((1 <=? c) && (c <=? 4)).
Proof.
  change (beval _ _) with (z2b (b2z (negb (z2b (b2z ((1 <=? c) && (c <=? 4))))))). now rewrite !z2b_b2z.
Qed.

Lemma code_constants :
  c_fc code = 43 /\ c_sub code = 14 /\ c_conformity code = 131 /\ c_more_nothing code = 0
  /\ c_more_keep code = 255 /\ c_exc_object_id code = 3 /\ c_exc_read_code code = 3.
Proof. repeat split. Qed.

Definition skip3 (x : Z) : bool := negb ((7 <=? x) && (x <? 128)).

Lemma factory_get_1 idn oid : factory_get code idn 1 oid = Ok (objects_of idn (py_range oid 3)).
Proof. reflexivity. Qed.

Lemma factory_get_2 idn oid :
  factory_get code idn 2 oid =
  Ok (objects_of idn (if nonempty (idn oid) then py_range oid 7 else py_range 0 7)).
Proof. reflexivity. Qed.

Lemma factory_get_3 idn oid :
  factory_get code idn 3 oid =
  Ok (objects_of idn (if nonempty (idn oid) then filter skip3 (py_range oid 256)
                      else filter skip3 (py_range 0 256))).
Proof. reflexivity. Qed.

Lemma factory_get_4 idn oid : factory_get code idn 4 oid = Ok [(oid, idn oid)].
Proof. reflexivity. Qed.

Lemma execute_eq idn c oid :
  execute code idn c oid =
  if (0 <=? oid) && (oid <=? 255) && (1 <=? c) && (c <=? 4)
  then do info <- factory_get code idn c oid; Ok (InfoResponse c info) else Ok (ExcResponse 3).
Proof.
  unfold execute. rewrite reject_object_id_eq, reject_read_code_eq.
  destruct ((0 <=? oid) && (oid <=? 255)); [|reflexivity]. cbn [negb andb].
  destruct ((1 <=? c) && (c <=? 4)) eqn:E; [|reflexivity]. cbn [negb]. now replace (c =? 0) with false by lia.
Qed.

Lemma execute_ok idn c oid :
  1 <= c <= 4 -> 0 <= oid <= 255 ->
  execute code idn c oid = (do info <- factory_get code idn c oid; Ok (InfoResponse c info)).
Proof. intros Hc Ho. rewrite execute_eq. now replace ((0 <=? oid) && (oid <=? 255) && (1 <=? c) && (c <=? 4)) with true by lia. Qed.

Definition byte_val (v : Z) : Prop := 0 <= v < 256.

Lemma pack_bytes_inv vs : forall b, pack_bytes vs = Ok b -> b = map Z.to_N vs /\ Forall byte_val vs.
Proof.
  induction vs as [|v t IH]; intros b H; cbn [pack_bytes] in H.
  - inversion H. split; [reflexivity|constructor].
  - destruct ((0 <=? v) && (v <? 256)) eqn:E; [|discriminate].
    apply bind_Ok in H as (r & [-> Hf]%IH & H). inversion H. split; [reflexivity|].
    constructor; [unfold byte_val; lia|exact Hf].
Qed.

Lemma pack_bytes_ok vs : Forall byte_val vs -> pack_bytes vs = Ok (map Z.to_N vs).
Proof.
  induction 1 as [|v t Hv Ht IH]; [reflexivity|]. cbn [pack_bytes map]. unfold byte_val in Hv.
  replace ((0 <=? v) && (v <? 256)) with true by lia. rewrite IH. reflexivity.
Qed.

Lemma pack_bytes_length vs b : pack_bytes vs = Ok b -> length b = length vs.
Proof. intros [-> _]%pack_bytes_inv. apply map_length. Qed.

(* what encode writes for the objects of a page, and for the page *)
Definition objs_wire (objs : list object) : bytes :=
  flat_map (fun o => Z.to_N (fst o) :: Z.to_N (blen (snd o)) :: snd o) objs.

Definition obj_ok (o : object) : Prop := byte_val (fst o) /\ byte_val (blen (snd o)).

Definition page_head (p : page) : list Z := [pg_code p; pg_more p; pg_next p; Z.of_nat (length (pg_objs p))].

Definition page_wire (p : page) : bytes :=
  map Z.to_N [14; pg_code p; 131; pg_more p; pg_next p; Z.of_nat (length (pg_objs p))] ++ objs_wire (pg_objs p).

Lemma ser_objs_inv objs : forall b, ser_objs objs = Ok b -> b = objs_wire objs /\ Forall obj_ok objs.
Proof.
  induction objs as [|[k v] t IH]; intros b H; cbn [ser_objs] in H.
  - inversion H. split; [reflexivity|constructor].
  - apply bind_Ok in H as (h & [-> Hr]%pack_bytes_inv & H). apply bind_Ok in H as (r & [-> Hf]%IH & H).
    inversion H. split; [reflexivity|]. constructor; [|exact Hf].
    rewrite !Forall_cons_iff in Hr. now destruct Hr as (Hk & Hl & _).
Qed.

Lemma ser_objs_ok objs : Forall obj_ok objs -> ser_objs objs = Ok (objs_wire objs).
Proof.
  induction 1 as [|[k v] t [Hk Hv] _ IH]; [reflexivity|]. cbn [ser_objs fst snd] in *.
  rewrite pack_bytes_ok, IH by (repeat apply Forall_cons; auto). reflexivity.
Qed.

Lemma encode_page_inv p b :
  encode_page code p = Ok b -> b = page_wire p /\ Forall byte_val (page_head p) /\ Forall obj_ok (pg_objs p).
Proof.
  unfold encode_page. intros H.
  apply bind_Ok in H as (h1 & [-> R1]%pack_bytes_inv & H). apply bind_Ok in H as (body & [-> R2]%ser_objs_inv & H).
  apply bind_Ok in H as (h2 & [-> R3]%pack_bytes_inv & H). inversion H. split; [reflexivity|]. split; [|exact R2].
  rewrite !Forall_cons_iff in R1. constructor; [apply R1|exact R3].
Qed.

Lemma encode_page_ok p :
  Forall byte_val (page_head p) -> Forall obj_ok (pg_objs p) -> encode_page code p = Ok (page_wire p).
Proof.
  intros Hh Ho. inversion Hh as [|? ? Hc Hh']; subst. unfold encode_page.
  rewrite (pack_bytes_ok [c_sub code; pg_code p; c_conformity code]), (ser_objs_ok _ Ho), (pack_bytes_ok _ Hh');
    [reflexivity|].
  repeat apply Forall_cons; [| exact Hc | | constructor]; unfold byte_val; cbn [c_sub c_conformity code]; lia.
Qed.

Lemma objs_size_cons o t : objs_size (o :: t) = 2 + blen (snd o) + objs_size t.
Proof. reflexivity. Qed.

Lemma objs_size_nonneg l : 0 <= objs_size l.
Proof. induction l as [|o t IH]; [cbn; lia|]. rewrite objs_size_cons. unfold blen. lia. Qed.

Lemma objs_size_count l : 2 * Z.of_nat (length l) <= objs_size l.
Proof. induction l as [|o t IH]; [cbn; lia|]. rewrite objs_size_cons. unfold blen. cbn [length]. lia. Qed.

Lemma page_objs_size objs : forall space, 0 < space ->
  objs_size (fst (page_objs code space objs)) < space.
Proof.
  induction objs as [|[k v] t IH]; intros space Hs.
  - cbn. lia.
  - rewrite page_objs_cons. destruct (space - (2 + blen v) <=? 0) eqn:E.
    + cbn. lia.
    + specialize (IH (space - (2 + blen v)) ltac:(lia)).
      destruct (page_objs code (space - (2 + blen v)) t) as [acc oos].
      cbn [fst] in *. rewrite objs_size_cons. cbn [snd]. lia.
Qed.

Lemma page_of_objs rc info : pg_objs (page_of code rc info) = fst (page_objs code (space0 code) info).
Proof. unfold page_of. destruct (page_objs code (space0 code) info); reflexivity. Qed.

Lemma filter_none {A} (p : A -> bool) l : (forall x, In x l -> p x = false) -> filter p l = [].
Proof.
  induction l as [|a t IH]; intros H; [reflexivity|]. cbn [filter].
  rewrite (H a (or_introl eq_refl)). apply IH. intros x Hx. apply H. right; exact Hx.
Qed.

Lemma filter_all {A} (p : A -> bool) l : (forall x, In x l -> p x = true) -> filter p l = l.
Proof.
  induction l as [|a t IH]; intros H; [reflexivity|]. cbn [filter].
  rewrite (H a (or_introl eq_refl)). f_equal. apply IH. intros x Hx. apply H. right; exact Hx.
Qed.

Lemma filter_len_le {A} (p : A -> bool) l : (length (filter p l) <= length l)%nat.
Proof. induction l as [|a t IH]; [apply le_n|]. cbn [filter]. destruct (p a); cbn [length]; lia. Qed.

Lemma filter_comm {A} (p q : A -> bool) l : filter p (filter q l) = filter q (filter p l).
Proof.
  induction l as [|a t IH]; [reflexivity|]. cbn [filter].
  destruct (q a) eqn:Eq, (p a) eqn:Ep; cbn [filter]; rewrite ?Eq, ?Ep, IH; reflexivity.
Qed.

Lemma filter_weaker {A} (p q : A -> bool) l :
  (forall x, p x = true -> q x = true) -> filter p (filter q l) = filter p l.
Proof.
  intros H. induction l as [|a t IH]; [reflexivity|]. cbn [filter].
  destruct (q a) eqn:Eq; cbn [filter].
  - rewrite IH. reflexivity.
  - destruct (p a) eqn:Ep; [rewrite (H a Ep) in Eq; discriminate | exact IH].
Qed.

Lemma zrange_app a m n : zrange a (m + n) = zrange a m ++ zrange (a + Z.of_nat m) n.
Proof.
  revert a. induction m as [|m IH]; intros a.
  - cbn [plus zrange app Z.of_nat]. rewrite Z.add_0_r. reflexivity.
  - cbn [plus zrange app]. rewrite IH. do 3 f_equal. lia.
Qed.

Lemma sorted_filter {A} (R : A -> A -> Prop) p l : StronglySorted R l -> StronglySorted R (filter p l).
Proof.
  induction 1 as [|a t Hs IH Hf]; cbn [filter]; [constructor|].
  destruct (p a); [|exact IH]. constructor; [exact IH|].
  apply Forall_forall. intros x Hx. apply filter_In in Hx as [Hx _].
  rewrite Forall_forall in Hf. auto.
Qed.

Lemma sorted_app_inv {A} (R : A -> A -> Prop) l1 l2 :
  StronglySorted R (l1 ++ l2) -> StronglySorted R l2 /\ forall a b, In a l1 -> In b l2 -> R a b.
Proof.
  induction l1 as [|x t IH]; cbn [app]; intros H; [split; [exact H|intros a b []]|].
  inversion H as [|? ? Hs Hf]; subst. destruct (IH Hs) as [H2 Hlt]. split; [exact H2|].
  intros a b [<-|Ha] Hb; [|auto]. rewrite Forall_forall in Hf. apply Hf, in_or_app. now right.
Qed.

Lemma sorted_app {A} (R : A -> A -> Prop) l1 l2 :
  StronglySorted R l1 -> StronglySorted R l2 -> (forall a b, In a l1 -> In b l2 -> R a b) ->
  StronglySorted R (l1 ++ l2).
Proof.
  induction 1 as [|x t Hs IH Hf]; intros H2 H; cbn [app]; [exact H2|]. constructor.
  - apply IH; [exact H2|]. intros a b Ha. apply H. now right.
  - apply Forall_app. split; [exact Hf|]. apply Forall_forall. intros b. apply H. now left.
Qed.

Lemma zrange_sorted a n : StronglySorted Z.lt (zrange a n).
Proof.
  revert a. induction n as [|n IH]; intros a; cbn [zrange]; constructor; [apply IH|].
  apply Forall_forall. intros x Hx%in_zrange. lia.
Qed.

Lemma py_range_In lo hi x : In x (py_range lo hi) <-> lo <= x < hi.
Proof. unfold py_range. rewrite in_zrange. lia. Qed.

Lemma py_range_filter lo hi : 0 <= lo ->
  py_range lo hi = filter (fun k => lo <=? k) (py_range 0 hi).
Proof.
  intros Hlo. unfold py_range. destruct (Z_le_gt_dec lo hi) as [H|H].
  - replace (Z.to_nat (hi - 0)) with (Z.to_nat lo + Z.to_nat (hi - lo))%nat by lia.
    rewrite zrange_app, filter_app.
    rewrite filter_none by (intros x Hx; apply in_zrange in Hx; lia).
    rewrite filter_all by (intros x Hx; apply in_zrange in Hx; lia).
    cbn [app]. f_equal. lia.
  - replace (Z.to_nat (hi - lo)) with O by lia. cbn [zrange].
    symmetry. apply filter_none. intros x Hx. apply in_zrange in Hx. lia.
Qed.

Definition lt_id (a b : object) : Prop := fst a < fst b.

Lemma suffix_is_filter acc x rest :
  StronglySorted lt_id (acc ++ x :: rest) ->
  filter (fun o => fst x <=? fst o) (acc ++ x :: rest) = x :: rest.
Proof.
  intros H. apply sorted_app_inv in H as [Ht Hb]. rewrite filter_app, filter_none.
  - cbn [app]. apply filter_all. intros y [<-|Hy]; [lia|].
    inversion Ht as [|? ? _ Hf]; subst. rewrite Forall_forall in Hf. specialize (Hf y Hy).
    unfold lt_id in Hf. lia.
  - intros y Hy. specialize (Hb y x Hy (or_introl eq_refl)). unfold lt_id in Hb. lia.
Qed.

Lemma lt_id_sorted_nodup l : StronglySorted lt_id l -> NoDup (map fst l).
Proof.
  induction 1 as [|a t Hs IH Hf]; cbn [map]; constructor; [|exact IH].
  intros Hin. apply in_map_iff in Hin as [y [Hy Hin]]. rewrite Forall_forall in Hf.
  specialize (Hf y Hin). unfold lt_id in Hf. lia.
Qed.

Lemma objects_of_filter idn p ids :
  objects_of idn (filter p ids) = filter (fun o => p (fst o)) (objects_of idn ids).
Proof.
  unfold objects_of. induction ids as [|k t IH]; [reflexivity|]. cbn [filter map].
  destruct (p k) eqn:Ep, (obj_nonempty (k, idn k)) eqn:En; cbn [map filter fst]; rewrite ?En, ?Ep, IH; reflexivity.
Qed.

Lemma objects_of_In idn ids k v :
  In (k, v) (objects_of idn ids) <-> In k ids /\ v = idn k /\ nonempty v = true.
Proof.
  unfold objects_of. rewrite filter_In, in_map_iff. unfold obj_nonempty. cbn [snd]. split.
  - intros [[x [Hx Hin]] Hn]. inversion Hx; subst. auto.
  - intros [Hin [-> Hn]]. split; [exists k; auto | exact Hn].
Qed.

Lemma sorted_objects idn ids : StronglySorted Z.lt ids -> StronglySorted lt_id (objects_of idn ids).
Proof.
  unfold objects_of. induction 1 as [|k t Hs IH Hf]; cbn [map filter]; [constructor|].
  destruct (obj_nonempty (k, idn k)); [|exact IH]. constructor; [exact IH|].
  apply Forall_forall. intros [k' v'] Hin. apply filter_In in Hin as [Hin _].
  apply in_map_iff in Hin as [x [Hx Hin]]. inversion Hx; subst.
  rewrite Forall_forall in Hf. unfold lt_id; cbn [fst]. apply Hf. exact Hin.
Qed.

Definition allobjs (idn : identity) (c : Z) : list object := objects_of idn (category c).
Definition from_id (s : Z) (o : object) : bool := s <=? fst o.

Lemma expected_alt idn c s : expected idn c s = filter (from_id s) (allobjs idn c).
Proof. unfold expected, allobjs. apply objects_of_filter. Qed.

Lemma category_sorted c : StronglySorted Z.lt (category c).
Proof.
  unfold category. destruct (c =? 1); [apply (zrange_sorted 0 3)|].
  destruct (c =? 2); [apply (zrange_sorted 0 7)|]. destruct (c =? 3); [|constructor].
  apply sorted_app; [apply (zrange_sorted 0 7)|apply zrange_sorted|].
  intros a b Ha%(in_zrange a 0 7) Hb%in_zrange. lia.
Qed.

Lemma category_bounds c k : In k (category c) -> 0 <= k <= 255.
Proof.
  assert (H : forallb (fun k => (0 <=? k) && (k <=? 255)) (category c) = true).
  { unfold category. destruct (c =? 1); [vm_compute; reflexivity|].
    destruct (c =? 2); [vm_compute; reflexivity|]. destruct (c =? 3); vm_compute; reflexivity. }
  rewrite forallb_forall in H. intros Hk. specialize (H k Hk). lia.
Qed.

Lemma expected_sorted idn c s : StronglySorted lt_id (expected idn c s).
Proof. rewrite expected_alt. apply sorted_filter, sorted_objects, category_sorted. Qed.

Lemma expected_from_member idn c s k v :
  In (k, v) (expected idn c s) -> s <= k /\ 0 <= k <= 255 /\ v = idn k /\ nonempty (idn k) = true.
Proof.
  rewrite expected_alt. intros H. apply filter_In in H as [Hin Hf]. unfold allobjs in Hin.
  apply objects_of_In in Hin as [Hk [-> Hn]]. unfold from_id in Hf; cbn [fst] in Hf.
  apply category_bounds in Hk. split; [lia|]. now split.
Qed.

Lemma expected_0 idn c : expected idn c 0 = allobjs idn c.
Proof.
  rewrite expected_alt. apply filter_all. intros [k v] Hin. unfold allobjs in Hin.
  apply objects_of_In in Hin as [Hk _]. apply category_bounds in Hk. unfold from_id; cbn [fst]. lia.
Qed.

Lemma expected_suffix idn c s acc k v rest :
  expected idn c s = acc ++ (k, v) :: rest -> expected idn c k = (k, v) :: rest.
Proof.
  intros H. assert (Hs : s <= k).
  { apply (expected_from_member idn c s k v). rewrite H. apply in_or_app. right. left. reflexivity. }
  rewrite expected_alt. rewrite <- (filter_weaker (from_id k) (from_id s)) by (unfold from_id; intros; lia).
  rewrite <- expected_alt, H. pose proof (expected_sorted idn c s) as Hsort. rewrite H in Hsort.
  exact (suffix_is_filter acc (k, v) rest Hsort).
Qed.

Lemma category_1 : category 1 = py_range 0 3. Proof. reflexivity. Qed.
Lemma category_2 : category 2 = py_range 0 7. Proof. reflexivity. Qed.
Lemma category_3 : category 3 = filter skip3 (py_range 0 256). Proof. vm_compute. reflexivity. Qed.

Definition stream_code (c : Z) : Prop := c = 1 \/ c = 2 \/ c = 3.

(* stream access: the objects of the category from s on, where s is the requested id, or 0
   when (codes 2, 3) the requested object is not configured *)
Definition stream_start (idn : identity) (c oid : Z) : Z :=
  if (c =? 1) || nonempty (idn oid) then oid else 0.

Lemma stream_get idn c oid :
  stream_code c -> 0 <= oid ->
  factory_get code idn c oid = Ok (expected idn c (stream_start idn c oid)).
Proof.
  intros Hc Hoid. unfold stream_start. destruct Hc as [-> | [-> | ->]].
  - rewrite factory_get_1. cbn [Z.eqb Pos.eqb orb]. unfold expected. rewrite category_1.
    rewrite (py_range_filter oid 3 Hoid). reflexivity.
  - rewrite factory_get_2. cbn [Z.eqb Pos.eqb orb]. destruct (nonempty (idn oid)).
    + unfold expected. rewrite category_2, (py_range_filter oid 7 Hoid). reflexivity.
    + rewrite expected_0. reflexivity.
  - rewrite factory_get_3. cbn [Z.eqb Pos.eqb orb]. destruct (nonempty (idn oid)).
    + unfold expected. rewrite category_3, (py_range_filter oid 256 Hoid), filter_comm. reflexivity.
    + rewrite expected_0. unfold allobjs. rewrite category_3. reflexivity.
Qed.

Lemma stream_get_configured idn c k :
  stream_code c -> 0 <= k -> k = 0 \/ nonempty (idn k) = true ->
  factory_get code idn c k = Ok (expected idn c k).
Proof.
  intros Hc Hk H. rewrite stream_get by assumption. unfold stream_start.
  destruct H as [-> | ->]; [destruct (_ || _)|rewrite orb_true_r]; reflexivity.
Qed.

Lemma start_ok_get idn c oid :
  stream_code c -> start_ok idn c oid = true ->
  0 <= oid <= 255 /\ factory_get code idn c oid = Ok (expected idn c oid).
Proof.
  intros Hc H. unfold start_ok in H. apply orb_prop in H as [H|H].
  - assert (oid = 0) by lia. subst. split; [lia|]. apply stream_get_configured; auto; lia.
  - apply andb_prop in H as [Hin Hne]. apply existsb_exists in Hin as [x [Hx Heq]].
    assert (x = oid) by lia. subst x. pose proof (category_bounds _ _ Hx) as Hb. split; [lia|].
    apply stream_get_configured; auto; lia.
Qed.

Definition fits (idn : identity) : Prop := forall k, blen (idn k) <= 244.

Lemma page_objs_split objs : forall space acc oos,
  page_objs code space objs = (acc, oos) ->
  match oos with
  | None => acc = objs
  | Some k => exists v rest, objs = acc ++ (k, v) :: rest
  end.
Proof.
  induction objs as [|[k v] t IH]; intros space acc oos H.
  - cbn in H. inversion H; subst. reflexivity.
  - rewrite page_objs_cons in H. destruct (space - (2 + blen v) <=? 0).
    + inversion H; subst. exists v, t. reflexivity.
    + destruct (page_objs code (space - (2 + blen v)) t) as [acc' oos'] eqn:E.
      inversion H; subst. specialize (IH _ _ _ E). destruct oos as [k'|].
      * destruct IH as [v' [rest ->]]. exists v', rest. reflexivity.
      * subst. reflexivity.
Qed.

Lemma page_of_cases rc info :
  page_of code rc info = {| pg_code := rc; pg_more := 0; pg_next := 0; pg_objs := info |} \/
  exists objs k v rest, info = objs ++ (k, v) :: rest /\
    page_of code rc info = {| pg_code := rc; pg_more := 255; pg_next := k; pg_objs := objs |}.
Proof.
  unfold page_of. destruct (page_objs code (space0 code) info) as [acc [k|]] eqn:E; apply page_objs_split in E.
  - right. destruct E as (v & rest & ->). now exists acc, k, v, rest.
  - left. now subst.
Qed.

Lemma page_objs_progress rc k v t : blen v <= 244 -> pg_objs (page_of code rc ((k, v) :: t)) <> [].
Proof.
  intros Hv. rewrite page_of_objs, space0_eq, page_objs_cons.
  destruct (247 - (2 + blen v) <=? 0) eqn:E; [lia|]. destruct (page_objs code _ t). discriminate.
Qed.

Lemma pchain_S idn c oid f :
  pchain code idn c oid (S f) =
  match execute code idn c oid with
  | Ok (InfoResponse rc info) =>
      let p := page_of code rc info in
      if pg_more p =? 255 then
        let '(ps, e) := pchain code idn c (pg_next p) f in (p :: ps, e)
      else ([p], PDone)
  | Ok (ExcResponse e) => ([], PExc e)
  | Raise e => ([], PRaises e)
  end.
Proof. reflexivity. Qed.

Lemma execute_stream idn c oid s :
  stream_code c -> 0 <= oid <= 255 -> factory_get code idn c oid = Ok (expected idn c s) ->
  execute code idn c oid = Ok (InfoResponse c (expected idn c s)).
Proof. intros Hc Ho Hget. rewrite execute_ok, Hget by (unfold stream_code in Hc; lia). reflexivity. Qed.

Lemma expected_next idn c s objs k v rest :
  stream_code c -> expected idn c s = objs ++ (k, v) :: rest ->
  0 <= k <= 255 /\ factory_get code idn c k = Ok (expected idn c k) /\ expected idn c k = (k, v) :: rest.
Proof.
  intros Hc H. assert (Hin : In (k, v) (expected idn c s)) by (rewrite H; apply in_or_app; right; left; reflexivity).
  apply expected_from_member in Hin as (_ & Hk & _ & Hne).
  split; [exact Hk|]. split; [apply stream_get_configured; auto; lia|]. exact (expected_suffix _ _ _ _ _ _ _ H).
Qed.

Lemma stream_page_progress idn c s :
  fits idn -> expected idn c s <> [] -> pg_objs (page_of code c (expected idn c s)) <> [].
Proof.
  intros Hfit Hne. destruct (expected idn c s) as [|[k v] t] eqn:E; [contradiction|].
  apply page_objs_progress. assert (Hin : In (k, v) (expected idn c s)) by (rewrite E; left; reflexivity).
  apply expected_from_member in Hin as (_ & _ & -> & _). apply Hfit.
Qed.

(* [start] is the id requested, [s] the id the stream effectively starts from (they differ only on a
   first request for an id that is not configured).  The fuel exceeds the number of objects still to
   send, and every page takes at least one ([stream_page_progress]). *)
Lemma pchain_from idn c : fits idn -> stream_code c ->
  forall fuel start s, 0 <= start <= 255 ->
    factory_get code idn c start = Ok (expected idn c s) ->
    (length (expected idn c s) < fuel)%nat ->
    exists ps, pchain code idn c start fuel = (ps, PDone) /\ concat (map pg_objs ps) = expected idn c s.
Proof.
  intros Hfit Hc. induction fuel as [|f IH]; intros start s Hst Hget Hlen; [lia|].
  rewrite pchain_S, (execute_stream idn c start s) by assumption. cbv zeta.
  pose proof (stream_page_progress idn c s Hfit) as Hprog.
  destruct (page_of_cases c (expected idn c s)) as [-> | (objs & k & v & rest & Hsp & Hp)].
  - eexists. split; [reflexivity|]. apply app_nil_r.
  - rewrite Hp in *. cbn [pg_more pg_next pg_objs Z.eqb Pos.eqb] in *.
    destruct (expected_next idn c s objs k v rest Hc Hsp) as (Hk & Hget' & Hnext).
    destruct (IH k k Hk Hget') as (ps & -> & Hcat).
    { rewrite Hnext. rewrite Hsp in Hprog, Hlen. rewrite app_length in Hlen.
      assert (objs <> []) by (apply Hprog; now destruct objs).
      destruct objs; [contradiction|]. unfold object in *. cbn [length] in *. lia. }
    eexists. split; [reflexivity|]. cbn [map concat pg_objs]. now rewrite Hcat, Hnext, Hsp.
Qed.

Lemma complete_pages idn c oid fuel :
  fits idn -> stream_code c -> start_ok idn c oid = true ->
  (length (expected idn c oid) < fuel)%nat ->
  exists ps, pchain code idn c oid fuel = (ps, PDone)
             /\ concat (map pg_objs ps) = expected idn c oid
             /\ NoDup (map fst (concat (map pg_objs ps))).
Proof.
  intros Hfit Hc Hs Hf. destruct (start_ok_get _ _ _ Hc Hs) as [Hb Hget].
  destruct (pchain_from idn c Hfit Hc fuel oid oid Hb Hget Hf) as [ps [Hp Hcat]].
  exists ps. split; [exact Hp|]. split; [exact Hcat|]. rewrite Hcat. apply lt_id_sorted_nodup, expected_sorted.
Qed.

(* the upper end of the property's quantifier: a 245-byte value never fits a page *)
Definition long_value : bytes := repeat 65%N 245.
Definition long_identity : identity := id_of [(0, long_value)].

Definition empty_page_response : response :=
  {| rs_sub := 14; rs_code := 1; rs_conformity := 131; rs_more := 255; rs_next := 0; rs_count := 0; rs_info := [] |}.

Lemma transact_long : transact code long_identity 1 0 = DOk (RResp empty_page_response).
Proof. vm_compute. reflexivity. Qed.

Lemma pchain_long_forever fuel : snd (pchain code long_identity 1 0 fuel) = POutOfFuel.
Proof.
  induction fuel as [|f IH]; [reflexivity|]. rewrite pchain_S.
  replace (execute code long_identity 1 0) with (Ok (InfoResponse 1 [(0, long_value)])) by (vm_compute; reflexivity).
  cbv zeta. replace (page_of code 1 [(0, long_value)])
    with {| pg_code := 1; pg_more := 255; pg_next := 0; pg_objs := [] |} by (vm_compute; reflexivity).
  cbn [pg_more pg_next Z.eqb Pos.eqb]. destruct (pchain code long_identity 1 0 f) as [ps e]. exact IH.
Qed.

Definition response_of_page (p : page) : response :=
  {| rs_sub := c_sub code; rs_code := pg_code p; rs_conformity := c_conformity code;
     rs_more := pg_more p; rs_next := pg_next p; rs_count := Z.of_nat (length (pg_objs p));
     rs_info := map (fun o => (fst o, VOne (snd o))) (pg_objs p) |}.

Lemma info_add_fresh info k v :
  ~ In k (map fst info) -> info_add info k v = info ++ [(k, VOne v)].
Proof.
  induction info as [|[k' x] t IH]; intros H; [reflexivity|]. cbn [info_add map fst In app] in *.
  destruct (k' =? k) eqn:E; [exfalso; apply H; left; lia|]. f_equal. apply IH. tauto.
Qed.

Definition add_all (info : list (Z * info_value)) (objs : list object) : list (Z * info_value) :=
  fold_left (fun i o => info_add i (fst o) (snd o)) objs info.

Lemma add_all_fresh objs : forall info,
  NoDup (map fst info ++ map fst objs) ->
  add_all info objs = info ++ map (fun o => (fst o, VOne (snd o))) objs.
Proof.
  induction objs as [|[k v] t IH]; intros info H; cbn [add_all fold_left map fst snd].
  - rewrite app_nil_r. reflexivity.
  - cbn [map fst] in H. pose proof (NoDup_remove_2 _ _ _ H) as Hk.
    rewrite info_add_fresh by (intro Hin; apply Hk; apply in_or_app; left; exact Hin).
    change (fold_left (fun i o => info_add i (fst o) (snd o)) t (info ++ [(k, VOne v)]))
      with (add_all (info ++ [(k, VOne v)]) t).
    rewrite IH.
    + rewrite <- app_assoc. reflexivity.
    + rewrite map_app. cbn [map fst]. rewrite <- app_assoc. exact H.
Qed.

Lemma decode_objs_wire objs : forall info fuel,
  Forall obj_ok objs -> (length (objs_wire objs) < fuel)%nat ->
  decode_objs fuel (objs_wire objs) info = DecOk (add_all info objs).
Proof.
  induction objs as [|[k v] t IH]; intros info fuel Hok Hf; [destruct fuel; reflexivity|].
  inversion Hok as [|? ? [Hk Hv] Ht]; subst. unfold byte_val in *. cbn [fst snd] in *.
  change (objs_wire ((k, v) :: t)) with (Z.to_N k :: Z.to_N (blen v) :: v ++ objs_wire t) in *.
  cbn [length] in Hf. rewrite app_length in Hf. unfold blen in *.
  destruct fuel as [|f]; [lia|]. cbn [decode_objs].
  replace (N.to_nat (Z.to_N (Z.of_nat (length v)))) with (length v) by lia.
  rewrite firstn_app_exact, skipn_app_exact, Z2N.id by lia. apply (IH _ f Ht). lia.
Qed.

Lemma decode_encode p b :
  NoDup (map fst (pg_objs p)) -> encode_page code p = Ok b ->
  decode_reply code (Z.to_N (c_fc code) :: b) = DOk (RResp (response_of_page p)).
Proof.
  intros Hnd (-> & Hh & Ho)%encode_page_inv.
  unfold page_head in Hh. rewrite !Forall_cons_iff in Hh. destruct Hh as (Hc & Hm & Hn & Hcnt & _). unfold byte_val in *.
  unfold page_wire. cbn [map app]. unfold decode_reply.
  replace (128 <? Z.of_N (Z.to_N (c_fc code))) with false by reflexivity.
  replace (negb (Z.of_N (Z.to_N (c_fc code)) =? c_fc code)) with false by reflexivity.
  rewrite (decode_objs_wire _ [] _ Ho), add_all_fresh by (exact Hnd || lia). cbn [app].
  unfold response_of_page. change (Z.of_N (Z.to_N 14)) with (c_sub code).
  change (Z.of_N (Z.to_N 131)) with (c_conformity code). now rewrite !Z2N.id by lia.
Qed.

Lemma expected_ok idn c s : fits idn -> Forall obj_ok (expected idn c s).
Proof.
  intros Hfit. apply Forall_forall. intros [k v] (_ & Hk & -> & _)%expected_from_member.
  specialize (Hfit k). unfold obj_ok, byte_val, blen in *. cbn [fst snd]. lia.
Qed.

Lemma stream_page_ok idn c s :
  fits idn -> stream_code c ->
  let p := page_of code c (expected idn c s) in
  Forall byte_val (page_head p) /\ Forall obj_ok (pg_objs p) /\ NoDup (map fst (pg_objs p)).
Proof.
  intros Hfit Hc p. pose proof (expected_ok idn c s Hfit) as Hok.
  pose proof (lt_id_sorted_nodup _ (expected_sorted idn c s)) as Hnd.
  assert (Hsz : objs_size (pg_objs p) < 247) by (unfold p; rewrite page_of_objs; now apply page_objs_size). pose proof (objs_size_count (pg_objs p)) as Hcnt.
  subst p. unfold page_head, stream_code in *.
  destruct (page_of_cases c (expected idn c s)) as [Hp | (objs & k & v & rest & Hsp & Hp)];
    rewrite Hp in *; cbn [pg_code pg_more pg_next pg_objs] in *.
  - split; [repeat constructor; unfold byte_val; lia|]. split; assumption.
  - rewrite Hsp in Hok, Hnd. rewrite map_app in Hnd. apply Forall_app in Hok as [Hok1 Hok2]. apply NoDup_app_l in Hnd.
    inversion Hok2 as [|? ? [Hk _] _]; subst. unfold byte_val in Hk. cbn [fst] in Hk.
    split; [repeat constructor; unfold byte_val; lia|]. split; assumption.
Qed.

Lemma transact_stream idn c oid s :
  fits idn -> stream_code c -> 0 <= oid <= 255 ->
  factory_get code idn c oid = Ok (expected idn c s) ->
  transact code idn c oid = DOk (RResp (response_of_page (page_of code c (expected idn c s)))).
Proof.
  intros Hfit Hc Hb Hget. unfold transact, server_reply.
  rewrite (execute_stream idn c oid s) by assumption. cbn [bind].
  destruct (stream_page_ok idn c s Hfit Hc) as (Hh & Ho & Hnd).
  rewrite (encode_page_ok _ Hh Ho). cbn [bind]. apply decode_encode; [exact Hnd|apply encode_page_ok; assumption].
Qed.

Definition chain_end_of (e : pchain_end) : chain_end :=
  match e with PDone => ChainDone | PExc x => ChainExc x | PRaises x => ChainRaises x | POutOfFuel => ChainOutOfFuel end.

Lemma chain_is_pchain idn c : fits idn -> stream_code c ->
  forall fuel oid s, 0 <= oid <= 255 ->
    factory_get code idn c oid = Ok (expected idn c s) ->
    chain code idn c oid fuel =
    (map response_of_page (fst (pchain code idn c oid fuel)), chain_end_of (snd (pchain code idn c oid fuel))).
Proof.
  intros Hfit Hc. induction fuel as [|f IH]; intros oid s Hb Hget; [reflexivity|].
  rewrite pchain_S. cbn [chain]. rewrite (transact_stream idn c oid s Hfit Hc Hb Hget).
  rewrite (execute_stream idn c oid s) by assumption. cbv zeta.
  cbn [rs_more rs_next response_of_page].
  destruct (page_of_cases c (expected idn c s)) as [-> | (objs & k & v & rest & Hsp & ->)]; [reflexivity|].
  cbn [pg_more pg_next Z.eqb Pos.eqb].
  destruct (expected_next idn c s objs k v rest Hc Hsp) as (Hk & Hget' & _).
  rewrite (IH k k Hk Hget'). now destruct (pchain code idn c k f).
Qed.

Lemma info_objects_page p : info_objects (rs_info (response_of_page p)) = pg_objs p.
Proof.
  unfold response_of_page; cbn [rs_info]. induction (pg_objs p) as [|[k v] l IH]; [reflexivity|].
  cbn [map info_objects flat_map fst snd app]. f_equal. exact IH.
Qed.

Lemma init_accepts_eq k :
  beval (env_of [("key", k)]) (c_init_accepts code) = ((0 <=? k) && (k <=? 6)) || ((128 <=? k) && (k <=? 255)).
Proof.
  change (beval _ _) with (z2b (b2z (z2b (b2z ((6 >=? k) && (k >=? 0))) || z2b (b2z ((255 >=? k) && (k >=? 128)))))).
  rewrite !z2b_b2z. lia.
Qed.

Lemma cfg_apply_spec m o : cfg_apply code m o = spec_apply m o.
Proof.
  destruct o as [l|l|k v|n v]; cbn [cfg_apply spec_apply].
  - revert m. induction l as [|[k v] t IH]; intros m; [reflexivity|]. cbn [fold_left fst snd].
    rewrite init_accepts_eq. apply IH.
  - reflexivity.
  - cbn [c_setitem_excluded code existsb]. rewrite orb_false_r. reflexivity.
  - reflexivity.
Qed.
