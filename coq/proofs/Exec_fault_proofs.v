(* Datastores that raise.  [faulty_ops] makes the k-th datastore call (validate / getValues /
   setValues) raise when the k-th entry of the plan is [true].  The theorems hold for every script:
   they are about the interpreter and the server wrapper (nothing inside execute catches, the wrapper
   answers doException(SlaveFailure)); the exception code and fc|0x80 are the generated ones. *)
From PM.theories Require Import Base Expr Store Exec.
From PM.proofs Require Import Exec_req_proofs.
Open Scope string_scope.
Open Scope list_scope.
Open Scope Z_scope.

Definition faulty : ctxops fstore := faulty_ops SC.
Definition any_true (l : list bool) : bool := existsb (fun b => b) l.

(* a faulty run against the fault-free run on the same store: it consumes a prefix [used] of the plan; a
   call raised => the run raises; none raised => it is the fault-free run; the first call raised => the
   store is untouched *)
Definition fault_spec (st st' : fstore) (out : res rsp) (stdres : slavectx * res rsp) : Prop :=
  exists used, fs_plan st = used ++ fs_plan st' /\
    (any_true used = true -> out = Raise OtherExc) /\
    (any_true used = false -> stdres = (fs_ctx st', out)) /\
    (forall p, fs_plan st = true :: p -> fs_ctx st' = fs_ctx st).

Lemma fault_spec_nocall st out : fault_spec st st out (fs_ctx st, out).
Proof.
  exists []. split; [reflexivity|]. split; [discriminate|]. split; [reflexivity|]. reflexivity.
Qed.

(* a datastore call either raises at once, or consumes a plan entry and is the fault-free call *)
Lemma fault_pop_cases c plan :
  (exists t, fault_pop {| fs_ctx := c; fs_plan := plan |} = (true, {| fs_ctx := c; fs_plan := t |}) /\
     forall sr, fault_spec {| fs_ctx := c; fs_plan := plan |} {| fs_ctx := c; fs_plan := t |} (Raise OtherExc) sr) \/
  (exists t, fault_pop {| fs_ctx := c; fs_plan := plan |} = (false, {| fs_ctx := c; fs_plan := t |}) /\
     forall c' st' out sr, fault_spec {| fs_ctx := c'; fs_plan := t |} st' out sr ->
                           fault_spec {| fs_ctx := c; fs_plan := plan |} st' out sr).
Proof.
  destruct plan as [|[|] t]; [right; exists []|left; exists t|right; exists t]; (split; [reflexivity|]).
  - intros c' st' out sr (used & Hp & H1 & H2 & _). exists used. cbn [fs_plan] in *.
    repeat split; try assumption. discriminate.
  - intros sr. exists [true]. repeat split; discriminate.
  - intros c' st' out sr (used & Hp & H1 & H2 & _). exists (false :: used). cbn [fs_plan app] in *.
    rewrite Hp. repeat split; try assumption. discriminate.
Qed.

Theorem run_faulty : forall sc r st sl ll,
  fault_spec st (fst (run XC faulty sc r st sl ll)) (snd (run XC faulty sc r st sl ll))
             (run XC std sc r (fs_ctx st) sl ll).
Proof.
  induction sc as [|s k IH]; intros r [c plan] sl ll; [apply fault_spec_nocall|].
  destruct s; cbn [run fs_ctx].
  - apply IH.
  - destruct (beval (req_env r sl) c0); [apply fault_spec_nocall|apply IH].
  - cbn [faulty faulty_ops std std_ops o_validate].
    destruct (fault_pop_cases c plan) as [(t & -> & H)|(t & -> & H)]; [apply H|]. cbn [fs_ctx].
    destruct (cx_validate SC c _ _ _) as [[|]|]; cbn [fst snd]; eapply H; [apply IH|apply fault_spec_nocall..].
  - cbn [faulty faulty_ops std std_ops o_get].
    destruct (fault_pop_cases c plan) as [(t & -> & H)|(t & -> & H)]; [apply H|]. cbn [fs_ctx].
    destruct (cx_get SC c _ _ _); cbn [fst snd]; eapply H; [apply IH|apply fault_spec_nocall].
  - cbn [faulty faulty_ops std std_ops o_get].
    destruct (fault_pop_cases c plan) as [(t & -> & H)|(t & -> & H)]; [apply H|]. cbn [fs_ctx].
    destruct (cx_get SC c _ _ _) as [[|h l]|]; cbn [fst snd]; eapply H;
      [apply fault_spec_nocall|apply IH|apply fault_spec_nocall].
  - destruct (eval_lexpr r sl ll vs) as [l|e]; [|apply fault_spec_nocall].
    cbn [faulty faulty_ops std std_ops o_set].
    destruct (fault_pop_cases c plan) as [(t & -> & H)|(t & -> & H)]; [apply H|]. cbn [fs_ctx fs_plan].
    destruct (cx_set SC c _ _ _) as [c'|]; cbn [fst snd]; eapply H; [apply IH|apply fault_spec_nocall].
  - destruct (eval_rargs r sl ll args); apply fault_spec_nocall.
Qed.

Theorem datastore_failure c plan r st' o :
  serve XC faulty {| fs_ctx := c; fs_plan := plan |} r = (st', o) ->
  exists used, plan = used ++ fs_plan st' /\
    (any_true used = true -> o = Exc (Z.lor (r_fc r) 128) 4) /\
    (any_true used = false -> serve XC std c r = (fs_ctx st', o)) /\
    (forall p, plan = true :: p -> fs_ctx st' = c).
Proof.
  unfold serve. destruct (dispatch XC (r_fc r)) as [cls sc| |].
  2, 3: intros [= <- <-]; exists []; repeat split; discriminate.
  unfold run_script. destruct (run_faulty sc r {| fs_ctx := c; fs_plan := plan |} [] []) as (used & Hp & H1 & H2 & H3).
  destruct (run XC faulty sc r _ [] []) as [st1 out]. cbn [fst snd fs_plan fs_ctx] in Hp, H1, H2, H3.
  destruct out as [rp|e]; intros [= <- <-]; exists used; (split; [exact Hp|]); (split; [|split; [|exact H3]]).
  - intros Hu. discriminate (H1 Hu).
  - intros Hu. rewrite (H2 Hu). reflexivity.
  - reflexivity.
  - intros Hu. rewrite (H2 Hu). reflexivity.
Qed.
