(* Base_proofs.v — facts about the definitions of theories/Base.v ([res], [option_eqb], [list_eqb], [wfb], [zrange]) and
   Expr's 0/1 booleans, list facts the standard library lacks, and (Section Stream) how a concatenation of non-empty
   frames splits at an arbitrary cut: whole frames, then a proper prefix of the next one. *)
From PM.theories Require Import Base Expr.
Open Scope list_scope.
Open Scope Z_scope.

Lemma z2b_b2z b : z2b (b2z b) = b.
Proof. destruct b; reflexivity. Qed.

Lemma bind_Ok {A B} (m : res A) (f : A -> res B) b : bind m f = Ok b -> exists a, m = Ok a /\ f a = Ok b.
Proof. destruct m as [a|e]; [eauto|discriminate]. Qed.

Lemma firstn_app_exact {A} (a b : list A) n : n = length a -> firstn n (a ++ b) = a.
Proof. intros ->. rewrite firstn_app, Nat.sub_diag, firstn_all. apply app_nil_r. Qed.

Lemma skipn_app_exact {A} (a b : list A) n : n = length a -> skipn n (a ++ b) = b.
Proof. intros ->. rewrite skipn_app, Nat.sub_diag, skipn_all. reflexivity. Qed.

Lemma skipn_min {A} a (l : list A) : skipn (Nat.min a (length l)) l = skipn a l.
Proof.
  destruct (Nat.le_gt_cases a (length l)) as [H|H]; [now rewrite Nat.min_l|].
  rewrite Nat.min_r by lia. rewrite !skipn_all2; [reflexivity|lia|lia].
Qed.

Lemma split_last2 {A} (m : list A) : (2 <= length m)%nat ->
  exists d c0 c1, m = d ++ [c0; c1].
Proof.
  intros H. exists (firstn (length m - 2) m).
  pose proof (firstn_skipn (length m - 2) m) as E.
  assert (L : length (skipn (length m - 2) m) = 2%nat) by (rewrite skipn_length; lia).
  destruct (skipn (length m - 2) m) as [|c0 [|c1 [|? ?]]]; cbn in L; try lia.
  exists c0, c1. symmetry. exact E.
Qed.

(* induction by groups of eight (bits of a byte string) *)
Lemma list8_ind {A} (P : list A -> Prop) :
  P [] -> (forall g, (0 < length g < 8)%nat -> P g) ->
  (forall g t, length g = 8%nat -> P t -> P (g ++ t)) -> forall l, P l.
Proof.
  intros H0 Hs Hg l. remember (length l) as n eqn:E. revert l E.
  induction n as [n IH] using lt_wf_ind. intros l ->.
  destruct l as [|b l']; [exact H0|]. set (l := b :: l') in *.
  destruct (Nat.lt_ge_cases (length l) 8) as [H|H]; [apply Hs; cbn [l length] in *; lia|].
  rewrite <- (firstn_skipn 8 l). apply Hg; [rewrite firstn_length; lia|].
  apply (IH (length (skipn 8 l))); [rewrite skipn_length; lia|reflexivity].
Qed.

Lemma forallb_rev {A} (f : A -> bool) l : forallb f (rev l) = forallb f l.
Proof.
  induction l as [|x t IH]; [reflexivity|]. cbn [rev forallb]. rewrite forallb_app, IH. cbn [forallb].
  rewrite andb_true_r. apply andb_comm.
Qed.

Lemma NoDup_app_l {A} (l1 l2 : list A) : NoDup (l1 ++ l2) -> NoDup l1.
Proof.
  induction l1 as [|a t IH]; cbn [app]; intros H; [constructor|]. inversion H; subst.
  constructor; [|auto]. intro Hin. apply H2, in_or_app. now left.
Qed.

Lemma NoDup_app_r {A} (l1 l2 : list A) : NoDup (l1 ++ l2) -> NoDup l2.
Proof. induction l1; cbn [app]; intros H; [assumption|]. inversion H; auto. Qed.

Lemma NoDup_snoc {A} (l : list A) x : NoDup l -> ~ In x l -> NoDup (l ++ [x]).
Proof.
  intros Hl Hx. apply NoDup_rev in Hl. rewrite <- (rev_involutive (l ++ [x])), rev_app_distr. apply NoDup_rev.
  constructor; [now rewrite <- in_rev | exact Hl].
Qed.

Section ListEqb.
  Context {A} (eqb : A -> A -> bool).

  Lemma list_eqb_eq : (forall x y, eqb x y = true -> x = y) ->
    forall l l', list_eqb eqb l l' = true -> l = l'.
  Proof.
    intros Heq. induction l as [|x t IH]; intros [|y t'] H; try discriminate H; [reflexivity|].
    cbn in H. apply andb_true_iff in H as [H1 H2]. f_equal; [now apply Heq|now apply IH].
  Qed.

  Lemma list_eqb_refl : (forall x, eqb x x = true) -> forall l, list_eqb eqb l l = true.
  Proof. intros Hr. induction l as [|x t IH]; [reflexivity|]. cbn. now rewrite Hr, IH. Qed.
End ListEqb.

Lemma option_eqb_eq {A} (eqb : A -> A -> bool) : (forall x y, eqb x y = true -> x = y) ->
  forall a b, option_eqb eqb a b = true -> a = b.
Proof. intros Heq [x|] [y|] H; try discriminate H; [f_equal; now apply Heq | reflexivity]. Qed.

Lemma option_eqb_Z a b : option_eqb Z.eqb a b = true -> a = b.
Proof. apply option_eqb_eq. intros x y. apply Z.eqb_eq. Qed.

Lemma wfb_cons b t : wfb (b :: t) = true <-> (b < 256)%N /\ wfb t = true.
Proof. cbn [wfb forallb]. unfold byteb. rewrite andb_true_iff, N.ltb_lt. reflexivity. Qed.

Lemma wfb_app a b : wfb (a ++ b) = wfb a && wfb b.
Proof. apply forallb_app. Qed.

Lemma wfb_rev a : wfb (rev a) = wfb a.
Proof. apply forallb_rev. Qed.

Lemma wfb_firstn n l : wfb l = true -> wfb (firstn n l) = true.
Proof. intros H. rewrite <- (firstn_skipn n l), wfb_app in H. apply andb_prop in H. tauto. Qed.

Lemma wfb_skipn n l : wfb l = true -> wfb (skipn n l) = true.
Proof. intros H. rewrite <- (firstn_skipn n l), wfb_app in H. apply andb_prop in H. tauto. Qed.

Lemma nth_error_wfb l i b : wfb l = true -> nth_error l i = Some b -> (b < 256)%N.
Proof.
  intros Hw Hn. apply nth_error_In in Hn. unfold wfb in Hw. rewrite forallb_forall in Hw.
  now apply N.ltb_lt, Hw.
Qed.

Lemma zrange_length lo n : length (zrange lo n) = n.
Proof. revert lo. induction n; intros; cbn; [reflexivity|f_equal; auto]. Qed.

Lemma in_zrange k lo n : In k (zrange lo n) <-> lo <= k < lo + Z.of_nat n.
Proof. revert lo. induction n as [|n IH]; intros lo; cbn [zrange In]; [|rewrite IH]; lia. Qed.

Lemma forallb_zrange P lo n :
  forallb P (zrange lo n) = true <-> forall i, 0 <= i < Z.of_nat n -> P (lo + i) = true.
Proof.
  rewrite forallb_forall. split.
  - intros H i Hi. apply H, in_zrange. lia.
  - intros H k Hk. apply in_zrange in Hk. replace k with (lo + (k - lo)) by lia. apply H. lia.
Qed.

Section Stream.
Context {F : Type} (adu : F -> bytes).
Hypothesis adu_ne : forall f, adu f <> [].
Notation stream fs := (concat (map adu fs)).

(* p is a proper prefix of the first frame of fs (empty when no frame is left) *)
Definition partial (p : bytes) (fs : list F) : Prop :=
  match fs with [] => p = [] | f :: _ => exists q, adu f = p ++ q /\ q <> [] end.

Lemma partial_nil fs : partial [] fs.
Proof. destruct fs as [|f fs]; [reflexivity|]. exists (adu f). split; [reflexivity|apply adu_ne]. Qed.

Lemma partial_whole p fs : partial p fs -> p = stream fs -> fs = [].
Proof.
  destruct fs as [|f fs]; [reflexivity|]. cbn [map concat]. intros (q & E & Hq) ->. exfalso.
  rewrite <- app_assoc, <- (app_nil_r (adu f)) in E at 1. apply app_inv_head in E.
  symmetry in E. apply app_eq_nil in E as [_ E]. now apply Hq.
Qed.

Lemma stream_length_ge fs : (length fs <= length (stream fs))%nat.
Proof.
  induction fs as [|f fs IH]; [reflexivity|]. cbn [map concat length]. rewrite app_length.
  specialize (adu_ne f). destruct (adu f); [now elim adu_ne|cbn [length]; lia].
Qed.

Lemma split_stream : forall fs (u v : bytes), u ++ v = stream fs ->
  exists fs1 fs2 p, fs = fs1 ++ fs2 /\ u = stream fs1 ++ p /\ p ++ v = stream fs2 /\ partial p fs2.
Proof.
  induction fs as [|f fs IH]; intros u v H; cbn [map concat] in H.
  - apply app_eq_nil in H as [-> ->]. now exists [], [], [].
  - apply app_eq_app in H as [l [[Hu Hs]|[Hf Hv]]].
    + destruct (IH l v (eq_sym Hs)) as (fs1 & fs2 & p & -> & -> & Hp & Hpart).
      exists (f :: fs1), fs2, p. cbn [map concat]. now rewrite <- app_assoc.
    + destruct l as [|x l].
      * rewrite app_nil_r in Hf. exists [f], fs, []. cbn [map concat app]. rewrite !app_nil_r.
        auto using partial_nil.
      * exists [], (f :: fs), u. cbn [map concat app]. rewrite Hf, Hv, <- app_assoc.
        repeat split. now exists (x :: l).
Qed.
End Stream.
