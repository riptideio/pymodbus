(* FrontendsC12_proofs.v — C12 facts about the GENERATED skeletons: the loop ladders of the catch-all
   front-ends are total, the Twisted protocols have none; and about the generated [server_wiring]
   table: every role a front-end's handlers read comes from a constructor argument. *)
From PM.theories Require Import Base Ladder Frontends CorrFrontends.
From PM.Generated Require Import GenFrontends.
From PM.proofs Require Import Frontends_proofs.
Open Scope list_scope.
Open Scope Z_scope.

(* the front-ends whose loop ends in a catch-all *)
Definition catch_all_fe (fe : frontend) : bool :=
  match fe with SyncTcp | SyncSerial | SyncUdp | AioTcp | AioUdp => true | TwTcp | TwUdp => false end.

Lemma generated_no_escape : forall fe, catch_all_fe fe = true -> no_escape_on_ordinary (fc_loop code fe).
Proof.
  intros fe Hfe. refine (step_action_total _ ordinary _). apply contains_ordinary_total.
  destruct fe; try discriminate Hfe; reflexivity.
Qed.

(* the Twisted protocols, stream and datagram: no handler at all *)
Definition tw_fe (fe : frontend) : Prop := fe = TwTcp \/ fe = TwUdp.

Lemma twisted_ladder_empty : forall fe b r, tw_fe fe -> step_action (fc_loop code fe) b (Some r) = Escape.
Proof. intros fe b r [->| ->]; destruct b; reflexivity. Qed.

(* witness: in the toy environment a truncated PDU makes the framer raise struct.error *)
Lemma twisted_not_total : forall fe, tw_fe fe ->
  ~ forall (FS Req Resp World : Type) (E : env FS Req Resp World) c sv k i,
      snd (serve_event FS Req Resp World code E fe c sv k i) <> Escape.
Proof.
  intros fe [->| ->] H;
    apply (H nat Z Z (list Z) toy_env toy_cfg (fresh_server _ _ _ _ toy_env []) O (IData [0%N; 3%N]));
    vm_compute; reflexivity.
Qed.

Lemma total_generated : forall fe, catch_all_fe fe = true ->
  forall (FS Req Resp World : Type) (E : env FS Req Resp World) c sv k i,
    snd (serve_event FS Req Resp World code E fe c sv k i) <> Escape.
Proof. intros. apply serve_event_no_escape. apply generated_no_escape. assumption. Qed.

Lemma twisted_serve_step : forall (FS Req Resp World : Type) (E : env FS Req Resp World) fe c w cs bs,
  tw_fe fe -> e_listen_only _ _ _ _ E w = false ->
  serve_step _ _ _ _ code E fe c w cs (IData bs) = data_step _ _ _ _ code E fe c w cs bs.
Proof.
  intros FS Req Resp World E fe c w cs bs Hfe Hl. apply serve_step_data.
  - destruct Hfe as [->| ->]; (split; [reflexivity|split; [exact Hl|discriminate]]).
  - destruct Hfe as [->| ->]; apply Bool.andb_false_r.
Qed.

(* constructor wiring: every role a front-end's handlers read ([required_roles], defined with
   [assoc_s] in theories/CorrFrontends.v) is computed from a constructor argument *)
Definition wiring_ok_b : bool :=
  forallb (fun sf : string * frontend =>
    match assoc_s (fst sf) server_wiring with
    | Some roles => forallb (fun role => match assoc_s role roles with
                                         | Some s => user_configurable s
                                         | None => false
                                         end) (required_roles (snd sf))
    | None => false
    end) servers.

Lemma wiring_ok : wiring_ok_b = true.
Proof. vm_compute. reflexivity. Qed.

Lemma configured_spec : forall s, user_configurable s = true ->
  forall A (x d : A), configured s (Some x) d = x /\ configured s None d = d.
Proof. intros s H A x d. destruct s; cbn in *; try discriminate; split; reflexivity. Qed.

Lemma server_roles_wired : forall srv fe, In (srv, fe) servers ->
  exists roles, assoc_s srv server_wiring = Some roles /\
    forall role, In role (required_roles fe) ->
      exists s, assoc_s role roles = Some s /\ user_configurable s = true.
Proof.
  intros srv fe Hin.
  pose proof wiring_ok as H. unfold wiring_ok_b in H. rewrite forallb_forall in H.
  specialize (H (srv, fe) Hin). cbn [fst snd] in H.
  destruct (assoc_s srv server_wiring) as [roles|]; [|discriminate].
  exists roles. split; [reflexivity|]. intros role Hr.
  rewrite forallb_forall in H. specialize (H role Hr).
  destruct (assoc_s role roles) as [s|]; [|discriminate].
  exists s. split; [reflexivity|exact H].
Qed.
