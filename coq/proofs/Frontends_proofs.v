(* Frontends_proofs.v — lemmas behind Props/C12.v and Props/C17.v that are GENERIC in the skeleton
   record (no generated file is imported here).  The instantiations with the skeletons regenerated
   from pymodbus/server/*.py live in FrontendsC12_proofs.v and FrontendsC17_proofs.v, so that a
   change that breaks one property's obligations does not take the other's down. *)
From PM.theories Require Import Base Ladder Frontends.
Open Scope list_scope.
Open Scope Z_scope.
#[local] Arguments cs_f {FS}.
#[local] Arguments sv_world {FS World}.
#[local] Arguments sv_conns {FS World}.
#[local] Arguments sv_shared {FS World}.
Arguments step_action : simpl never.
Arguments apply_action : simpl never.

Lemma step_action_none : forall L b, step_action L b None <> Escape.
Proof.
  intros L b. unfold step_action, handle_outcome.
  destruct b; destruct (ls_empty L); cbn; discriminate.
Qed.

(* a ladder is total on a class of exceptions when no member of the class falls through *)
Definition total_on (P : raised -> bool) (l : ladder) : Prop :=
  forall r, P r = true -> first_match l r <> None /\ first_match l r <> Some Escape.

Lemma step_action_total : forall L P, total_on P (ls_ladder L) ->
  forall b r, P r = true -> step_action L b (Some r) <> Escape.
Proof.
  intros L P HT b r HP. destruct (HT r HP) as [H1 H2].
  unfold step_action, handle_outcome.
  destruct (first_match (ls_ladder L) r) as [a|] eqn:Hf; [|congruence].
  assert (a <> Escape) by congruence.
  destruct b; destruct (ls_empty L); try assumption.
  destruct a; cbn; congruence.
Qed.

(* `except Exception` and the bare `except:` *)
Definition catch_all (c : clause) : bool := match c with CException | CBare => true | _ => false end.

Lemma catch_all_ordinary : forall c r, catch_all c = true -> ordinary r = true -> catches c r = true.
Proof. intros c r Hc Hr. destruct c; try discriminate Hc; destruct r; try discriminate Hr; reflexivity. Qed.

(* no clause re-raises, and a catch-all clause is reached *)
Fixpoint contains_ordinary (l : ladder) : bool :=
  match l with
  | [] => false
  | (c, a) :: t => negb (action_eqb a Escape) && (catch_all c || contains_ordinary t)
  end.

Lemma contains_ordinary_total : forall l, contains_ordinary l = true -> total_on ordinary l.
Proof.
  induction l as [|[c a] t IH]; cbn [contains_ordinary]; [discriminate|]. intros H r Hr.
  apply andb_prop in H. destruct H as [Ha H]. cbn [first_match].
  destruct (catches c r) eqn:Hc.
  - split; [discriminate|]. intros [= ->]. discriminate.
  - apply IH; [|exact Hr]. destruct (catch_all c) eqn:Hk; [|exact H].
    rewrite (catch_all_ordinary c r Hk Hr) in Hc. discriminate.
Qed.

Lemma units_not_omitted : forall T (u : units_policy) (A B : T), u <> UnitsOmitted ->
  match u with UnitsOmitted => A | _ => B end = B.
Proof. intros T [] A B H; [reflexivity..|contradiction]. Qed.

Lemma is_empty_false : forall bs : bytes, bs <> [] -> is_empty bs = false.
Proof. intros [|b t] H; [congruence|reflexivity]. Qed.

Section Generic.
  Variables FS Req Resp World : Type.
  Variable C : fe_code.
  Variable E : env FS Req Resp World.

  Notation serve_step := (serve_step FS Req Resp World C E).
  Notation serve_data := (serve_data FS Req Resp World C E).
  Notation serve_activation := (serve_activation FS Req Resp World C E).
  Notation serve_event := (serve_event FS Req Resp World C E).
  Notation deliver := (deliver FS Req Resp World E).
  Notation callback := (callback FS Req Resp World E).
  Notation fargs_for := (fargs_for FS Req Resp World E).
  Notation conn_state := (conn_state FS Req Resp World C E).
  Notation open_conn := (open_conn FS Req Resp World E).
  Notation fresh_conn := (fresh_conn FS Req Resp World E).
  Notation fresh_server := (fresh_server FS Req Resp World E).
  Notation run_events := (run_events FS Req Resp World C E).
  Notation run_alone := (run_alone FS Req Resp World C E).

  (* the world after running the callback over the delivered requests *)
  Fixpoint exec_fold (X : exec_skel) (c : cfg) (w : World) (ds : list (FS * Req)) : World :=
    match ds with
    | [] => w
    | (_, r) :: t => match callback X c w r with
                     | CbSent _ w' _ => exec_fold X c w' t
                     | CbRaised _ w' _ => w'
                     end
    end.

  Lemma deliver_world : forall X c ds w ff exn acc,
    fst (fst (fst (deliver X c w ds ff exn acc))) = exec_fold X c w ds.
  Proof.
    induction ds as [|[f r] t IH]; intros; cbn; [reflexivity|].
    destruct (callback X c w r); cbn; [apply IH|reflexivity].
  Qed.

  (* the framer call and the callbacks it makes: the part of an iteration before the ladder acts *)
  Definition data_core (fe : frontend) (c : cfg) (w : World) (f : FS) (bs : bytes) :=
    let '(ds, ffinal, exn) := e_recv _ _ _ _ E (fargs_for (fc_loop C fe) c w (is_empty bs)) f bs in
    deliver (fc_exec C fe) c w ds ffinal exn [].

  (* an iteration that reaches the framer; the ladder answers what the framer or a callback raised *)
  Definition data_step (fe : frontend) (c : cfg) (w : World) (cs : connstate FS) (bs : bytes) :=
    let '(w', f', outs, exn') := data_core fe c w (cs_f cs) bs in
    let a := step_action (fc_loop C fe) (is_empty bs) (option_map RPy exn') in
    (w', apply_action _ _ _ _ E (fc_loop C fe) a f' cs, outs, a).

  (* an iteration in which [r] is raised before the framer is reached *)
  Definition fault_step (fe : frontend) (b : bool) (r : raised) (w : World) (cs : connstate FS) :=
    let a := step_action (fc_loop C fe) b (Some r) in
    (w, apply_action _ _ _ _ E (fc_loop C fe) a (cs_f cs) cs, @nil bytes, a).

  Definition framer_reached (L : loop_skel) (w : World) : Prop :=
    pre_raise L = None /\ ls_listen_gate L && e_listen_only _ _ _ _ E w = false /\ ls_units L <> UnitsOmitted.

  Lemma serve_data_eq : forall fe c w cs bs, ls_units (fc_loop C fe) <> UnitsOmitted ->
    serve_data fe c w cs bs = data_step fe c w cs bs.
  Proof.
    intros fe c w cs bs Hu. unfold Frontends.serve_data, data_step, data_core.
    rewrite (units_not_omitted _ _ _ _ Hu).
    destruct (e_recv _ _ _ _ E _ (cs_f cs) bs) as [[ds ff] exn]. reflexivity.
  Qed.

  Lemma serve_step_data : forall fe c w cs bs,
    framer_reached (fc_loop C fe) w -> is_empty bs && empty_skips (fc_loop C fe) = false ->
    serve_step fe c w cs (IData bs) = data_step fe c w cs bs.
  Proof.
    intros fe c w cs bs (Hp & Hg & Hu) He.
    unfold Frontends.serve_step. rewrite Hp, Hg, He. exact (serve_data_eq fe c w cs bs Hu).
  Qed.

  Definition no_escape_on_ordinary (L : loop_skel) : Prop :=
    forall b r, ordinary r = true -> step_action L b (Some r) <> Escape.

  (* what an iteration can be: the ladder's answer to an exception raised before the framer was
     reached — always an ordinary one (TypeError of the call or of the address format, a transport
     fault) —, nothing at all, or the framer call *)
  Inductive step_view (fe : frontend) (c : cfg) (w : World) (cs : connstate FS)
    : input -> World * connstate FS * list bytes * action -> Prop :=
  | SvFault i b r : ordinary r = true -> step_view fe c w cs i (fault_step fe b r w cs)
  | SvIdle i : step_view fe c w cs i (w, cs, [], Continue)
  | SvData bs : step_view fe c w cs (IData bs) (data_step fe c w cs bs).

  Lemma serve_step_view : forall fe c w cs i, step_view fe c w cs i (serve_step fe c w cs i).
  Proof.
    intros fe c w cs i. unfold Frontends.serve_step.
    destruct (pre_raise (fc_loop C fe)) as [e|]; [apply (SvFault _ _ _ _ _ false (RPy e)); reflexivity|].
    destruct (ls_listen_gate (fc_loop C fe) && e_listen_only _ _ _ _ E w); [apply SvIdle|].
    destruct i as [bs| |]; [|apply (SvFault _ _ _ _ _ false RTimeout); reflexivity
                            |apply (SvFault _ _ _ _ _ false RSockErr); reflexivity].
    destruct (is_empty bs && empty_skips (fc_loop C fe)); [apply SvIdle|].
    destruct (ls_units (fc_loop C fe)) eqn:Hu.
    1-3: rewrite serve_data_eq by congruence; apply SvData.
    unfold Frontends.serve_data. rewrite Hu. apply (SvFault _ _ _ _ _ (is_empty bs) (RPy TypeError)). reflexivity.
  Qed.

  Lemma serve_step_no_escape : forall fe c w cs i,
    no_escape_on_ordinary (fc_loop C fe) ->
    snd (serve_step fe c w cs i) <> Escape.
  Proof.
    intros fe c w cs i H. destruct (serve_step_view fe c w cs i) as [i b r Hr|i|bs].
    - apply H. exact Hr.
    - discriminate.
    - unfold data_step. destruct (data_core fe c w (cs_f cs) bs) as [[[w' f'] outs] [e|]]; cbn;
        [apply H; reflexivity|apply step_action_none].
  Qed.

  Lemma serve_activation_no_escape : forall fe c w cs i,
    no_escape_on_ordinary (fc_loop C fe) ->
    snd (serve_activation fe c w cs i) <> Escape.
  Proof.
    intros fe c w cs i H. unfold Frontends.serve_activation.
    destruct (ls_site (fc_loop C fe)); try (apply serve_step_no_escape; assumption).
    pose proof (serve_step_no_escape fe c w cs i H) as H1.
    destruct (serve_step fe c w cs i) as [[[w1 cs1] o1] a1]. cbn in H1.
    destruct (continues a1) eqn:Hc; [|exact H1].
    pose proof (serve_step_no_escape fe c w1 cs1 (IData []) H) as H2.
    destruct (serve_step fe c w1 cs1 (IData [])) as [[[w2 cs2] o2] a2]. cbn in H2 |- *.
    destruct a1; cbn in Hc; try discriminate; try exact H2.
    destruct a2; try exact H2; discriminate.
  Qed.

  Lemma serve_event_no_escape : forall fe c sv k i,
    no_escape_on_ordinary (fc_loop C fe) ->
    snd (serve_event fe c sv k i) <> Escape.
  Proof.
    intros fe c sv k i H. unfold Frontends.serve_event.
    pose proof (serve_activation_no_escape fe c (sv_world sv) (conn_state fe sv k) i H) as H1.
    destruct (serve_activation fe c (sv_world sv) (conn_state fe sv k) i) as [[[w' cs'] outs] a].
    exact H1.
  Qed.

  Lemma serve_step_world : forall fe c w cs i,
    fst (fst (fst (serve_step fe c w cs i))) = w \/
    exists bs, i = IData bs /\
      fst (fst (fst (serve_step fe c w cs i))) =
        exec_fold (fc_exec C fe) c w
          (fst (fst (e_recv _ _ _ _ E (fargs_for (fc_loop C fe) c w (is_empty bs)) (cs_f cs) bs))).
  Proof.
    intros fe c w cs i. destruct (serve_step_view fe c w cs i) as [i b r Hr|i|bs];
      [left; reflexivity|left; reflexivity|right; exists bs; split; [reflexivity|]].
    unfold data_step, data_core. destruct (e_recv _ _ _ _ E _ (cs_f cs) bs) as [[ds ff] exn]. cbn [fst].
    rewrite <- (deliver_world (fc_exec C fe) c ds w ff exn []).
    destruct (deliver (fc_exec C fe) c w ds ff exn []) as [[[w' f'] outs] exn']. reflexivity.
  Qed.

  Lemma step_agree : forall a b c w cs bs, bs <> [] ->
    framer_reached (fc_loop C a) w -> framer_reached (fc_loop C b) w ->
    data_core a c w (cs_f cs) bs = data_core b c w (cs_f cs) bs ->
    (forall e, step_action (fc_loop C a) false (Some (RPy e)) <> Continue) ->
    let ra := serve_step a c w cs (IData bs) in
    let rb := serve_step b c w cs (IData bs) in
    fst (fst (fst ra)) = fst (fst (fst rb)) /\ snd (fst ra) = snd (fst rb) /\ (snd ra = Continue -> ra = rb).
  Proof.
    intros a b c w cs bs Hne Ha Hb Hd Hexc ra rb.
    pose proof (serve_step_data a c w cs bs Ha) as Ea. pose proof (serve_step_data b c w cs bs Hb) as Eb.
    unfold data_step in Ea, Eb. rewrite (is_empty_false bs Hne) in Ea, Eb.
    specialize (Ea eq_refl). specialize (Eb eq_refl). rewrite Hd in Ea.
    fold ra in Ea. fold rb in Eb. clearbody ra rb. revert Ea Eb.
    destruct (data_core b c w (cs_f cs) bs) as [[[w' f'] outs] [e|]]; cbn [option_map];
      intros -> ->; repeat split.
    intro H. destruct (Hexc e H).
  Qed.

  Lemma serve_event_shared : forall fe c sv k i, ls_site (fc_loop C fe) = PerServer ->
    serve_event fe c sv k i =
    let '(w', cs', outs, a) := serve_step fe c (sv_world sv) (sv_shared sv) i in
    ({| sv_world := w'; sv_conns := sv_conns sv; sv_shared := cs' |}, outs, a).
  Proof.
    intros fe c sv k i H. unfold Frontends.serve_event, Frontends.conn_state, Frontends.serve_activation.
    rewrite H. reflexivity.
  Qed.

  Lemma serve_event_dgram : forall fe c sv k i, ls_site (fc_loop C fe) = PerDatagram ->
    serve_event fe c sv k i =
    let '(w', _, outs, a) := serve_activation fe c (sv_world sv) fresh_conn i in
    ({| sv_world := w'; sv_conns := sv_conns sv; sv_shared := sv_shared sv |}, outs, a).
  Proof.
    intros fe c sv k i H. unfold Frontends.serve_event, Frontends.conn_state. rewrite H.
    destruct (serve_activation fe c (sv_world sv) fresh_conn i) as [[[w' cs'] outs] a]. reflexivity.
  Qed.

  Lemma conn_get_put_same : forall l k s, conn_get FS (conn_put FS l k s) k = Some s.
  Proof.
    induction l as [|[j s0] t IH]; intros; cbn.
    - rewrite Nat.eqb_refl. reflexivity.
    - destruct (Nat.eqb j k) eqn:Hj; cbn; rewrite Hj; [reflexivity|apply IH].
  Qed.

  Lemma conn_get_put_other : forall l k j s, j <> k -> conn_get FS (conn_put FS l k s) j = conn_get FS l j.
  Proof.
    induction l as [|[i s0] t IH]; intros k j s Hjk; cbn.
    - destruct (Nat.eqb k j) eqn:H; [apply Nat.eqb_eq in H; congruence|reflexivity].
    - destruct (Nat.eqb i k) eqn:Hik; cbn.
      + destruct (Nat.eqb i j) eqn:Hij; [|reflexivity].
        apply Nat.eqb_eq in Hik. apply Nat.eqb_eq in Hij. congruence.
      + destruct (Nat.eqb i j); [reflexivity|apply IH; assumption].
  Qed.

  Lemma fresh_connection_state : forall fe sv k,
    ls_site (fc_loop C fe) <> PerServer ->
    conn_state fe (open_conn sv k) k = fresh_conn.
  Proof.
    intros fe sv k H. unfold Frontends.conn_state, Frontends.open_conn.
    destruct (ls_site (fc_loop C fe)); [|reflexivity|congruence].
    cbn. rewrite conn_get_put_same. reflexivity.
  Qed.

  Lemma serve_event_answer : forall fe c sv1 sv2 k i,
    sv_world sv1 = sv_world sv2 -> conn_state fe sv1 k = conn_state fe sv2 k ->
    let r1 := serve_event fe c sv1 k i in
    let r2 := serve_event fe c sv2 k i in
    snd (fst r1) = snd (fst r2) /\ snd r1 = snd r2 /\ sv_world (fst (fst r1)) = sv_world (fst (fst r2)).
  Proof.
    intros fe c sv1 sv2 k i Hw Hc. cbn zeta. unfold Frontends.serve_event. rewrite Hw, Hc.
    destruct (serve_activation fe c (sv_world sv2) (conn_state fe sv2 k) i) as [[[w' cs'] outs] a].
    destruct (ls_site (fc_loop C fe)); repeat split.
  Qed.

  Lemma conn_private : forall fe c sv k j i,
    ls_site (fc_loop C fe) <> PerServer -> j <> k ->
    conn_state fe (fst (fst (serve_event fe c sv k i))) j = conn_state fe sv j.
  Proof.
    intros fe c sv k j i H Hjk. unfold Frontends.serve_event.
    destruct (serve_activation fe c (sv_world sv) (conn_state fe sv k) i) as [[[w' cs'] outs] a].
    unfold Frontends.conn_state.
    destruct (ls_site (fc_loop C fe)); cbn; [|reflexivity|congruence].
    rewrite conn_get_put_other by assumption. reflexivity.
  Qed.

  Lemma conn_own : forall fe c sv k i,
    ls_site (fc_loop C fe) = PerConnection ->
    conn_state fe (fst (fst (serve_event fe c sv k i))) k =
    snd (fst (fst (serve_activation fe c (sv_world sv) (conn_state fe sv k) i))).
  Proof.
    intros fe c sv k i H. unfold Frontends.serve_event.
    destruct (serve_activation fe c (sv_world sv) (conn_state fe sv k) i) as [[[w' cs'] outs] a].
    unfold Frontends.conn_state. rewrite H. cbn. rewrite conn_get_put_same. reflexivity.
  Qed.

  Definition mine (k : nat) (lg : list (logrec World)) : list (logrec World) :=
    filter (fun r => Nat.eqb (lg_conn _ r) k) lg.

  Lemma interleave : forall fe c k evs sv,
    ls_site (fc_loop C fe) = PerConnection ->
    let '(svf, lg) := run_events fe c sv evs in
    run_alone fe c (conn_state fe sv k) (map (fun r => (lg_world _ r, lg_input _ r)) (mine k lg)) =
    (conn_state fe svf k, map (fun r => (lg_out _ r, lg_action _ r)) (mine k lg)).
  Proof.
    intros fe c k evs. induction evs as [|[j i] t IH]; intros sv Hs; cbn; [reflexivity|].
    pose proof (conn_own fe c sv j i Hs) as Ho. pose proof (conn_private fe c sv j k i) as Hp.
    destruct (serve_event fe c sv j i) as [[sv' o] a] eqn:Hev. cbn [fst] in Ho, Hp.
    specialize (IH sv' Hs). destruct (run_events fe c sv' t) as [svf lg].
    unfold mine in *. cbn [filter lg_conn map lg_world lg_input lg_out lg_action].
    destruct (Nat.eqb_spec j k) as [->|Hjk].
    - unfold Frontends.serve_event in Hev. cbn [map Frontends.run_alone lg_world lg_input lg_out lg_action].
      destruct (serve_activation fe c (sv_world sv) (conn_state fe sv k) i) as [[[w' cs'] o'] a'].
      injection Hev as _ <- <-. cbn [fst snd] in Ho. rewrite <- Ho, IH. reflexivity.
    - rewrite <- Hp by congruence. exact IH.
  Qed.

End Generic.
