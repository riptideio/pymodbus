(* What Props/C09_e2e.v composes.  One delivered request ([handle_one_spec_g]) puts the component theorems
   together: C01 (decode, encode), C04 (execution), the C09 skeleton lemma, the framing's packer.  Then, generic
   in the server state: the callback on delivery lists, the handler loops (one framer call per read =
   FrBaseA.feed) and the simulation of the abstract server over a request stream.  Route: docs/C09_e2e.md. *)
From PM.theories Require Import Base FrBaseA FrTcp FrSpecA PduSpec Pdu CorrPdu Store ExecSpec Server EndToEnd CorrE2E.
From PM.Generated Require Import GenFramerA.
From PM.Generated Require GenServer.
From PM.proofs Require Import Pdu_proofs Exec_proofs Exec_req_proofs Exec_hist_proofs Server_proofs EndToEnd_adapt_proofs EndToEnd_spec_proofs.
From PM.Props Require C01 C04 C06_tcpascii C10.
From Coq Require Import ZifyBool.
Open Scope string_scope.
Open Scope list_scope.
Open Scope Z_scope.
(* lia must see / and mod; importing ZifyBool resets the hook *)
Ltac Zify.zify_post_hook ::= Z.to_euclidean_division_equations.

Notation abs := Exec_proofs.abs.
Notation SV := GenServer.code.

(* the three Modbus/TCP front-ends (threaded, asyncio, Twisted) *)
Definition tcp_fes : list skel := [GenServer.sync_tcp; GenServer.aio_tcp; GenServer.tw_tcp].

(* what the composition needs of a front-end skeleton: it is one of the generated ones and its
   send() tests should_respond *)
Definition fe_ok (sk : skel) : Prop := In sk all_fes /\ gated sk = true.

Lemma tcp_fe_ok sk : In sk tcp_fes -> fe_ok sk.
Proof.
  intros H. cbv [tcp_fes] in H. cbn [In] in H.
  destruct H as [<-|[<-|[<-|[]]]]; (split; [cbv [all_fes GenServer.frontends map snd]; cbn [In]; tauto|reflexivity]).
Qed.

Definition unit_rel (c : slavectx) (s : astate) : Prop := inv c /\ aeq (abs c) s /\ cells_ok s.

Inductive units_rel : units slavectx -> sunits -> Prop :=
| ur_nil : units_rel [] []
| ur_cons u c s l su : unit_rel c s -> units_rel l su -> units_rel ((u, c) :: l) ((u, s) :: su).

Lemma units_rel_keys l su : units_rel l su -> u_keys slavectx l = map fst su.
Proof. induction 1; cbn; [reflexivity|]. now f_equal. Qed.

Lemma units_rel_get l su k c : units_rel l su -> u_get slavectx l k = Some c ->
  exists s, su_get su k = Some s /\ unit_rel c s.
Proof.
  induction 1 as [|u c0 s0 l su Hr Hl IH]; cbn [u_get su_get]; [discriminate|].
  destruct (u =? k); [|exact IH]. intros H. injection H as <-. eauto.
Qed.

Lemma units_rel_set l su k c s : units_rel l su -> unit_rel c s ->
  units_rel (u_set slavectx l k c) (su_set su k s).
Proof.
  intros H Hcs. induction H as [|u c0 s0 l su Hr Hl IH]; cbn [u_set su_set]; [constructor|].
  destruct (u =? k); constructor; assumption.
Qed.

Lemma su_get_notin su k : ~ In k (map fst su) -> su_get su k = None.
Proof.
  induction su as [|[u s] t IH]; cbn [su_get map fst In]; [reflexivity|]. intros H.
  destruct (u =? k) eqn:E; [exfalso; apply H; left; lia|]. apply IH. tauto.
Qed.

(* the request is executed on a hosted unit and answered: not a broadcast, and the context it is
   routed to exists (single mode routes every unit id to the context stored under 0) *)
Definition served (sk : skel) (cfg : scfg) (hosted : list Z) (uid : Z) : Prop :=
  has_bcast sk && cf_bcast cfg && (uid =? 0) = false /\ In (spec_key (cf_single cfg) uid) hosted.

Lemma hosted_unit l su k : units_rel l su -> In k (u_keys slavectx l) ->
  exists c s, u_get slavectx l k = Some c /\ su_get su k = Some s /\ unit_rel c s.
Proof.
  intros Hrel Hin. destruct (u_get slavectx l k) as [c|] eqn:Ec.
  - destruct (units_rel_get l su _ c Hrel Ec) as (s & Hs & Hcs). eauto.
  - now apply (proj2 (u_get_in_keys slavectx l _)) in Hin.
Qed.

Definition req_ok (sk : skel) (cfg : scfg) (hosted : list Z) (q : e2e_req) : Prop :=
  0 <= q_tid q < 65536 /\ 0 <= q_pid q < 65536 /\ 0 <= q_uid q < 256 /\
  (exists w, body_ok (q_body q) w) /\
  served sk cfg hosted (q_uid q).

Definition frame_of (q : e2e_req) : frame :=
  {| f_tid := q_tid q; f_pid := q_pid q; f_uid := q_uid q; f_pdu := sreq_pdu (q_body q) |}.

Lemma frame_adu q : spec_adu KTcp (frame_of q) = req_adu q.
Proof. reflexivity. Qed.

Definition delivery_of (q : e2e_req) : delivery := spec_delivery KTcp (frame_of q).

Lemma ctx_key_spec cfg u : ctx_key SV cfg u = spec_key (cf_single cfg) u.
Proof. reflexivity. Qed.

(* the ids a frame can carry *)
Definition wire_ids (q : e2e_req) : Prop :=
  0 <= q_tid q < 65536 /\ 0 <= q_pid q < 65536 /\ 0 <= q_uid q < 256.

(* a framing, as the composition sees it: [dl q] is what the framer hands to the callback for request q, [pk]
   builds the packet of a response, [adu] is its specified ADU.  The tid equation and the length premise serve
   TCP (MBAP header), [wfb] the serial framings (hex digits / checksum); 300 is any bound between what field
   widths allow (264, C01_pdu_wf_bound) and what the MBAP length field holds *)
Definition pk_ok (pk : packer) (adu : adu_fn) (dl : e2e_req -> delivery) : Prop :=
  (forall q, d_pdu (dl q) = sreq_pdu (q_body q) /\ d_uid (dl q) = q_uid q) /\
  (forall q o ro m, wire_ids q -> o_tid o = d_tid (dl q) -> o_uid o = q_uid q ->
     CorrPdu.abs ro = Some m -> CorrPdu.mem_cls (class_of ro) CorrPdu.conforming_encode = true ->
     (length (spec_pdu m) <= 300)%nat -> wfb (spec_pdu m) = true ->
     pk o ro = Ok (adu q (spec_pdu m))).

(* an item of a stream: a request of the domain [P], or any well-formed frame that the framer's unit
   filter rejects (a frame for somebody else on the bus) *)
Definition item (k : kind) (fc : FrBaseA.cfg) (P : e2e_req -> Prop) (q : e2e_req) : Prop :=
  P q \/ (frame_wf k (frame_of q) /\ spec_accepts k fc (q_uid q) = false).

Lemma in_region_msg m w : wreq_of_msg m = Some w -> in_region w /\ other_ok w.
Proof.
  destruct m; unfold wreq_of_msg; intros H; try discriminate H; injection H as <-; cbn [in_region other_ok]; try tauto.
  - split; [destruct on; tauto|exact I].
  - split; [|exact I]. unfold zbytes. rewrite map_length.
    destruct (C01.C01_bitpack_shape coils) as (_ & Hl & _). unfold len in *. rewrite Hl. unfold bit_byte_count. lia.
Qed.

Lemma body_region b w : body_ok b w -> in_region w /\ other_ok w.
Proof.
  destruct b as [m|fc rest]; cbn [body_ok].
  - intros [Hw _]. exact (in_region_msg m w Hw).
  - intros (-> & _ & Hu & _). cbn [in_region other_ok]. split; [exact I|].
    unfold unassigned in Hu. apply negb_true_iff in Hu. exact Hu.
Qed.

(* what [spec_run_g] folds *)
Definition sstep_g (adu : adu_fn) (single : bool) (su : sunits) (q : e2e_req) : option (sunits * bytes) :=
  match su_get su (spec_key single (q_uid q)) with
  | Some s =>
      match spec_answer_g adu s q with
      | Some (s', b) => Some (su_set su (spec_key single (q_uid q)) s', b)
      | None => None
      end
  | None => None
  end.

Lemma spec_run_g_cons adu single su q t :
  spec_run_g adu single su (q :: t) =
  match sstep_g adu single su q with
  | Some (su1, b) => let '(su2, b2) := spec_run_g adu single su1 t in (su2, b ++ b2)
  | None => spec_run_g adu single su t
  end.
Proof.
  cbn [spec_run_g]. unfold sstep_g.
  destruct (su_get su _) as [s|]; [destruct (spec_answer_g adu s q) as [[s' b]|]|]; reflexivity.
Qed.

(* on a served unit request.execute runs once, on the addressed store, and its response is sent unless it
   says should_respond = False *)
Lemma respond_served sk cfg l (rq : dreq slavectx) c c' r :
  fe_ok sk -> has_bcast sk && cf_bcast cfg && (rq_uid rq =? 0) = false ->
  u_get slavectx l (spec_key (cf_single cfg) (rq_uid rq)) = Some c -> rq_exec rq c = (c', Ok r) ->
  respond slavectx SV sk cfg l rq =
    (u_set slavectx l (spec_key (cf_single cfg) (rq_uid rq)) c',
     if rs_respond r then [the_out slavectx rq r] else [], None).
Proof.
  intros [Hsk Hg] Hbc Hc He. rewrite (respond_spec slavectx sk Hsk). unfold spec_respond, sp_bcast. rewrite Hbc.
  unfold exec_on. rewrite ctx_key_spec, Hc, He. unfold send_of. rewrite Hg. now destruct (rs_respond r).
Qed.

Lemma exc_obj_canon ro m c : exc_code_of ro = Some c -> CorrPdu.abs ro = Some m ->
  forall fc, obj_fc ro = Ok fc -> ro = OExc (fc - 128) fc c.
Proof.
  intros Hc Ha fc Hfc. destruct ro; cbn [exc_code_of] in Hc; try discriminate Hc. injection Hc as ->.
  cbn [obj_fc] in Hfc. injection Hfc as ->.
  apply abs_inv in Ha as [Ha _]. cbn [abs_raw] in Ha.
  destruct (fc =? original_code + 128) eqn:E; [|discriminate Ha]. f_equal. lia.
Qed.

(* Server.out carries no payload: the object handed to send() is recomputed from the output's codes,
   and is the object execute() returned *)
Lemma response_obj_out cfg l d r fc c ro rfc m :
  u_get slavectx l (spec_key (cf_single cfg) (d_uid d)) = Some c -> obj_of_rsp (snd (e_serve c r)) = Some ro ->
  obj_fc ro = Ok rfc -> CorrPdu.abs ro = Some m ->
  response_obj cfg l d r (the_out slavectx (dreq_of d fc r) (rsp_summary ro rfc)) = Ok ro.
Proof.
  intros Hc Hro Hfc Ha. unfold response_obj.
  change (o_code (the_out slavectx (dreq_of d fc r) (rsp_summary ro rfc))) with (exc_code_of ro).
  change (o_fc (the_out slavectx (dreq_of d fc r) (rsp_summary ro rfc))) with rfc.
  destruct (exc_code_of ro) as [code|] eqn:Ex.
  - now rewrite (exc_obj_canon ro m code Ex Ha rfc Hfc).
  - now rewrite ctx_key_spec, Hc, Hro.
Qed.

Theorem handle_one_spec_g pk adu dl sk cfg l su q :
  pk_ok pk adu dl -> fe_ok sk -> units_rel l su -> req_ok sk cfg (u_keys slavectx l) q ->
  exists s s' b l',
    su_get su (spec_key (cf_single cfg) (q_uid q)) = Some s /\
    spec_answer_g adu s q = Some (s', b) /\
    handle_one pk sk cfg l (dl q) = Ok (l', b) /\
    units_rel l' (su_set su (spec_key (cf_single cfg) (q_uid q)) s') /\
    u_keys slavectx l' = u_keys slavectx l.
Proof.
  intros [Hdl Hpk] Hsk Hrel (Htid & Hpid & Huid & (w & Hbody) & Hserved).
  destruct (Hdl q) as [Hdp Hdu]. pose proof (proj1 Hserved) as Hbc.
  destruct (hosted_unit l su _ Hrel (proj2 Hserved)) as (c & s & Ec & Hs & Hinv & Haeq & Hcells).
  set (k := spec_key (cf_single cfg) (q_uid q)) in *.
  destruct (decode_body _ w Hbody) as (o & r & Hdec & Hofc & Hreq & Hattrs).
  destruct (body_region _ w Hbody) as [Hreg Hoth].
  destruct (C04.C04_refines c w r Hinv Hattrs Hoth Hreg) as (c' & rp & Hserve & Hinv' & Haeq' & Hvw & _).
  destruct (spec_exec_aeq (abs c) s w Haeq) as [Hst Hrs].
  rewrite Hrs in Hvw.
  destruct (body_response_wf _ w s Hbody Hcells) as [Hrwf Hcells'].
  destruct (response_object rp _ Hvw Hrwf) as (ro & Hro & Hroabs & Hroc & _).
  destruct (py_pdu_parts ro _ (C01.C01_encode_conforms ro _ Hroc Hroabs)) as (rfc & _ & Hrfc & _).
  assert (Hes : e_serve c r = (c', rp)) by exact Hserve.
  assert (Hex : exec_effect r c = (c', Ok (rsp_summary ro rfc))) by (unfold exec_effect; now rewrite Hes, Hro, Hrfc).
  exists s, (fst (spec_exec s w)), (adu q (spec_pdu (spec_response_msg (snd (spec_exec s w))))), (u_set slavectx l k c').
  split; [exact Hs|]. split.
  { unfold spec_answer_g. rewrite (body_wreq _ w Hbody). destruct (spec_exec s w). reflexivity. }
  split.
  { unfold handle_one. rewrite Hdp, Hdec. cbn [bind]. rewrite Hofc. cbn [bind]. rewrite Hreq.
    rewrite (respond_served sk cfg l (dreq_of (dl q) (wfc w) r) c c' (rsp_summary ro rfc) Hsk);
      cbn [dreq_of rq_uid rq_exec]; rewrite ?Hdu; try assumption.
    cbn [rsp_summary rs_respond packets_of].
    erewrite response_obj_out; [|rewrite Hdu; exact Ec|rewrite Hes; exact Hro|exact Hrfc|exact Hroabs].
    cbn [bind].
    erewrite (Hpk q); [|exact (conj Htid (conj Hpid Huid))|reflexivity|exact Hdu|exact Hroabs|exact Hroc|
                       exact (response_pdu_length _ Hrwf)|exact (response_pdu_wfb _ Hrwf)].
    cbn [bind]. now rewrite app_nil_r. }
  split; [|apply u_keys_set].
  apply units_rel_set; [exact Hrel|]. split; [exact Hinv'|]. split; [|exact Hcells'].
  eapply aeq_trans; [exact Haeq'|exact Hst].
Qed.

(* Everything that does not look inside the callback, generic in the server state [ST]; [handle_all] and
   [handle_all_x] satisfy the two equations of [hall] by computation. *)
Definition result {ST FS} (l : ST) (b : bytes) (st : FS) : e2e_result ST FS :=
  {| e_units := l; e_out := b; e_framer := st; e_stop := None; e_fault := None |}.

Definition nonempty (c : bytes) : bool := match c with [] => false | _ => true end.

Lemma concat_filter_nonempty chunks : concat (filter nonempty chunks) = concat chunks.
Proof. induction chunks as [|c cs IH]; [reflexivity|]. destruct c; cbn [filter nonempty concat app]; [exact IH|now rewrite IH]. Qed.

Section Callback.
Context {ST : Type}.
Variable keys : ST -> list Z.
Variable hone : ST -> delivery -> res (ST * bytes).
Variable hall : ST -> list delivery -> ST * bytes * option pyexn.
Hypothesis hall_nil : forall s, hall s [] = (s, [], None).
Hypothesis hall_cons : forall s d t, hall s (d :: t) =
  match hone s d with
  | Raise e => (s, [], Some e)
  | Ok (s1, b1) => let '(s2, b2, e) := hall s1 t in (s2, b1 ++ b2, e)
  end.
Hypothesis hone_keys : forall s d s' b, hone s d = Ok (s', b) -> keys s' = keys s.

Lemma hall_app d1 : forall s d2 s' b, hall s (d1 ++ d2) = (s', b, None) ->
  exists s1 b1 b2, hall s d1 = (s1, b1, None) /\ hall s1 d2 = (s', b2, None) /\ b = b1 ++ b2.
Proof.
  induction d1 as [|d t IH]; intros s d2 s' b H.
  - exists s, [], b. rewrite hall_nil. auto.
  - cbn [app] in H. rewrite hall_cons in *. destruct (hone s d) as [[sa ba]|e]; [|discriminate H].
    destruct (hall sa (t ++ d2)) as [[sb bb] eb] eqn:E. injection H as <- <- ->.
    destruct (IH sa d2 sb bb E) as (s1 & b1 & b2 & H1 & H2 & ->).
    exists s1, (ba ++ b1), b2. rewrite H1. now rewrite app_assoc.
Qed.

Lemma hall_keys ds : forall s s' b, hall s ds = (s', b, None) -> keys s' = keys s.
Proof.
  induction ds as [|d t IH]; intros s s' b H.
  - rewrite hall_nil in H. now injection H as <- _.
  - rewrite hall_cons in H. destruct (hone s d) as [[sa ba]|e] eqn:E1; [|discriminate H].
    destruct (hall sa t) as [[sb bb] eb] eqn:E. injection H as <- _ ->.
    rewrite (IH sa sb bb E). exact (hone_keys s d sa ba E1).
Qed.

Section Loops.
Context {FS : Type}.
Variable recv : FrBaseA.cfg -> FS -> bytes -> FS * list delivery * outc.
Variable sk : skel.
Variable cfg : scfg.

(* the first read of a successful feed; the rest is fed with the unit list of the new state, which is the
   same because the hosted set has not changed *)
Lemma feed_step c cs st l st' ds l' b :
  feed (recv (unit_cfg sk cfg (keys l))) st (c :: cs) = (st', ds, true) -> hall l ds = (l', b, None) ->
  exists s1 d1 l1 b1 d2 b2,
    recv (unit_cfg sk cfg (keys l)) st c = (s1, d1, Done) /\ hall l d1 = (l1, b1, None) /\
    feed (recv (unit_cfg sk cfg (keys l1))) s1 cs = (st', d2, true) /\ hall l1 d2 = (l', b2, None) /\ b = b1 ++ b2.
Proof.
  cbn [feed]. intros Hf Hh. destruct (recv (unit_cfg sk cfg (keys l)) st c) as [[s1 d1] o].
  destruct (feed (recv (unit_cfg sk cfg (keys l))) s1 cs) as [[s2 d2] ok] eqn:Ef.
  injection Hf as <- <- Hflag. destruct o; try discriminate Hflag. subst ok.
  destruct (hall_app d1 l d2 l' b Hh) as (l1 & b1 & b2 & H1 & H2 & ->).
  rewrite <- (hall_keys d1 l l1 b1 H1) in Ef. exists s1, d1, l1, b1, d2, b2. auto 6.
Qed.

Lemma run_reads_feed eof : forall chunks st l st' ds l' b,
  feed (recv (unit_cfg sk cfg (keys l))) st (eff_chunks eof chunks) = (st', ds, true) ->
  hall l ds = (l', b, None) ->
  run_reads_g keys hall recv sk cfg eof st l chunks = result l' b st'.
Proof.
  induction chunks as [|c cs IH]; intros st l st' ds l' b; cbn [eff_chunks run_reads_g];
    [|destruct (eof && match c with [] => true | _ :: _ => false end)]; intros Hf Hh.
  1,2: cbn [feed] in Hf; injection Hf as <- <-; rewrite hall_nil in Hh; injection Hh as <- <-; reflexivity.
  destruct (feed_step c _ st l st' ds l' b Hf Hh) as (s1 & d1 & l1 & b1 & d2 & b2 & Hr & H1 & Hf2 & H2 & ->).
  now rewrite Hr, H1, (IH s1 l1 st' d2 l' b2 Hf2 H2).
Qed.

Lemma run_serial_feed : forall chunks st l st' ds l' b,
  feed (recv (unit_cfg sk cfg (keys l))) st (filter nonempty chunks) = (st', ds, true) ->
  hall l ds = (l', b, None) ->
  run_serial_g keys hall recv sk cfg st l chunks = result l' b st'.
Proof.
  induction chunks as [|c cs IH]; intros st l st' ds l' b Hf Hh.
  - cbn in Hf. injection Hf as <- <-. rewrite hall_nil in Hh. injection Hh as <- <-. reflexivity.
  - destruct c as [|x c']; cbn [filter nonempty run_serial_g] in *; [exact (IH st l st' ds l' b Hf Hh)|].
    destruct (feed_step _ _ st l st' ds l' b Hf Hh) as (s1 & d1 & l1 & b1 & d2 & b2 & Hr & H1 & Hf2 & H2 & ->).
    now rewrite Hr, H1, (IH s1 l1 st' d2 l' b2 Hf2 H2).
Qed.
End Loops.

Section Stream.
(* [sstep]: one step of the abstract server, [srun]: its run, [R]: server states vs abstract ones.  If the
   callback simulates [sstep] on the requests of the domain [P] and the abstract server ignores what the unit
   filter rejects, the callback on the reference deliveries of the stream simulates [srun]. *)
Context {SS : Type}.
Variable sstep : SS -> e2e_req -> option (SS * bytes).
Variable srun : SS -> list e2e_req -> SS * bytes.
Hypothesis srun_nil : forall st, srun st [] = (st, []).
Hypothesis srun_cons : forall st q t, srun st (q :: t) =
  match sstep st q with
  | Some (st1, b) => let '(st2, b2) := srun st1 t in (st2, b ++ b2)
  | None => srun st t
  end.
Variable R : ST -> SS -> Prop.
Variable k : kind.
Variable fc : FrBaseA.cfg.
Variable P : e2e_req -> Prop.
Hypothesis step_ok : forall x st q, R x st -> P q ->
  spec_accepts k fc (q_uid q) = true /\
  exists x' st' b, sstep st q = Some (st', b) /\ hone x (spec_delivery k (frame_of q)) = Ok (x', b) /\ R x' st'.
Hypothesis step_rej : forall x st q, R x st -> spec_accepts k fc (q_uid q) = false -> sstep st q = None.

Theorem stream_sim qs : forall x st, R x st -> Forall (item k fc P) qs ->
  exists x', hall x (ref_deliveries k fc (map frame_of qs)) = (x', snd (srun st qs), None) /\ R x' (fst (srun st qs)).
Proof.
  induction qs as [|q t IH]; intros x st HR Hok.
  - exists x. rewrite srun_nil. cbn. rewrite hall_nil. auto.
  - inversion Hok as [|? ? Hq Ht]; subst. unfold ref_deliveries in *. cbn [map filter].
    change (f_uid (frame_of q)) with (q_uid q). rewrite srun_cons. destruct Hq as [Hq|[_ Hrej]].
    + destruct (step_ok x st q HR Hq) as (Hacc & x1 & st1 & b & Hs & Hone & HR1).
      destruct (IH x1 st1 HR1 Ht) as (x' & Hall & HR'). exists x'.
      rewrite Hacc, Hs. cbn [map]. rewrite hall_cons, Hone, Hall. destruct (srun st1 t). auto.
    + rewrite Hrej, (step_rej x st q HR Hrej). exact (IH x st HR Ht).
Qed.
End Stream.
End Callback.

Lemma handle_one_keys pk sk cfg l d l' b : In sk all_fes ->
  handle_one pk sk cfg l d = Ok (l', b) -> u_keys slavectx l' = u_keys slavectx l.
Proof.
  intros Hsk. unfold handle_one.
  destruct (py_decode true (d_pdu d)) as [o|e]; cbn [bind]; [|discriminate].
  destruct (obj_fc o) as [fc|e]; cbn [bind]; [|discriminate].
  destruct (req_of_obj o) as [r|]; [|discriminate].
  pose proof (C10.C10_hosted_set_stable slavectx sk Hsk cfg l (dreq_of d fc r)) as Hk.
  destruct (respond slavectx SV sk cfg l (dreq_of d fc r)) as [[l1 outs] exn]. cbn [fst] in Hk.
  destruct exn; [discriminate|].
  destruct (packets_of pk cfg l d r outs); cbn [bind]; [|discriminate].
  intros H. injection H as <- _. exact Hk.
Qed.

Lemma framer_cfg_keys sk cfg l l' : u_keys slavectx l' = u_keys slavectx l -> framer_cfg sk cfg l' = framer_cfg sk cfg l.
Proof. intros H. unfold framer_cfg, unit_cfg. now rewrite H. Qed.

Lemma hosted_accepted k sk cfg hosted uid : In (spec_key (cf_single cfg) uid) hosted ->
  spec_accepts k (unit_cfg sk cfg hosted) uid = true.
Proof.
  intros Hin. unfold spec_accepts, FrSpecA.spec_single, unit_cfg. cbn [c_single c_units].
  destruct (cf_single cfg); [reflexivity|]. cbn [spec_key] in Hin.
  apply orb_true_intro. right. exact (Server_proofs.zmem_in uid _ (unit_list_incl sk cfg hosted uid Hin)).
Qed.

Lemma rejected_not_hosted k sk cfg hosted l su uid : units_rel l su -> u_keys slavectx l = hosted ->
  spec_accepts k (unit_cfg sk cfg hosted) uid = false -> su_get su (spec_key (cf_single cfg) uid) = None.
Proof.
  intros Hrel Hk Hrej. apply su_get_notin. rewrite <- (units_rel_keys l su Hrel), Hk. intros Hin.
  now rewrite (hosted_accepted k sk cfg hosted _ Hin) in Hrej.
Qed.

Lemma served_accepted sk cfg l uid : served sk cfg (u_keys slavectx l) uid ->
  spec_accepts KTcp (framer_cfg sk cfg l) uid = true.
Proof. intros [_ Hin]. now apply hosted_accepted. Qed.

Theorem stream_spec_g k pk adu sk cfg (P : e2e_req -> Prop) hosted :
  pk_ok pk adu (fun q => spec_delivery k (frame_of q)) -> fe_ok sk ->
  (forall q, P q -> req_ok sk cfg hosted q) -> forall qs l su,
  u_keys slavectx l = hosted -> units_rel l su -> Forall (item k (unit_cfg sk cfg hosted) P) qs ->
  exists l', handle_all pk sk cfg l (ref_deliveries k (unit_cfg sk cfg hosted) (map frame_of qs))
               = (l', snd (spec_run_g adu (cf_single cfg) su qs), None) /\
             units_rel l' (fst (spec_run_g adu (cf_single cfg) su qs)) /\ u_keys slavectx l' = hosted.
Proof.
  intros Hpk Hsk HP qs l su Hkeys Hrel Hok.
  apply (stream_sim (handle_one pk sk cfg) (handle_all pk sk cfg) (fun _ => eq_refl) (fun _ _ _ => eq_refl)
           (sstep_g adu (cf_single cfg)) (spec_run_g adu (cf_single cfg)) (fun _ => eq_refl) (spec_run_g_cons adu (cf_single cfg))
           (fun l su => units_rel l su /\ u_keys slavectx l = hosted) k (unit_cfg sk cfg hosted) P); [| |now split|exact Hok].
  - intros x st q [HR Hx] Hq. apply HP in Hq.
    split; [apply hosted_accepted, Hq|]. rewrite <- Hx in Hq.
    destruct (handle_one_spec_g pk adu _ sk cfg x st q Hpk Hsk HR Hq) as (s & s' & b & l1 & Hs & Hans & Hone & Hrel1 & Hk1).
    exists l1, (su_set st (spec_key (cf_single cfg) (q_uid q)) s'), b. unfold sstep_g. rewrite Hs, Hans.
    repeat split; try assumption. congruence.
  - intros x st q [HR Hx] Hrej. unfold sstep_g. now rewrite (rejected_not_hosted k sk cfg hosted x st _ HR Hx Hrej).
Qed.

Definition pdu_ok (b : sreq) : Prop :=
  (1 <= length (sreq_pdu b) <= 300)%nat /\ is_msg (e2e_dec (sreq_pdu b)) = true.

Lemma request_pdu_length m w : wreq_of_msg m = Some w -> spec_wf m = true ->
  (1 <= length (spec_pdu m) <= 300)%nat.
Proof.
  intros Hw Hwf. split.
  - destruct m; try discriminate Hw; cbn [spec_pdu app length]; lia.
  - assert (Hb : Pdu_size_proofs.byte_counted m = true) by (destruct m; try discriminate Hw; reflexivity).
    pose proof (C01.C01_pdu_wf_bound m Hwf Hb) as Hl. unfold PduSpec.len in Hl. lia.
Qed.

Lemma body_pdu_ok b w : body_ok b w -> pdu_ok b.
Proof.
  intros Hb. split.
  - destruct b as [m|fc rest]; cbn [body_ok sreq_pdu] in *.
    + destruct Hb as [Hw Hwf]. exact (request_pdu_length m w Hw Hwf).
    + destruct Hb as (_ & _ & _ & Hl). cbn [length]. lia.
  - destruct (decode_body b w Hb) as (o & r & Hdec & Hfc & _).
    unfold e2e_dec, py_decode_wrapper. now rewrite Hdec, Hfc.
Qed.

Lemma stream_frames k fc (P : e2e_req -> Prop) qs : k = KTcp \/ k = KAscii ->
  (forall q, P q -> wire_ids q /\ pdu_ok (q_body q) /\ (k = KTcp \/ wfb (sreq_pdu (q_body q)) = true)) ->
  Forall (item k fc P) qs -> Forall (stream_frame k e2e_dec fc) (map frame_of qs).
Proof.
  intros Hk HP Hqs. apply Forall_map. eapply Forall_impl; [|exact Hqs]. intros q [Hq|[Hwf Hrej]].
  - destruct (HP q Hq) as ((Ht & Hp & Hu) & (Hl & Hm) & Hb). split; [|intros _; exact Hm].
    destruct Hk as [->| ->]; cbn [frame_wf]; unfold tcp_wf, ascii_wf, frame_of; cbn [f_tid f_pid f_uid f_pdu].
    + lia.
    + destruct Hb as [Hb|Hb]; [discriminate Hb|]. exact (conj Hu (conj Hb (proj1 Hl))).
  - split; [exact Hwf|]. intros Hacc. change (f_uid (frame_of q)) with (q_uid q) in Hacc. congruence.
Qed.

Lemma feed_tcp fc qs chunks : Forall (stream_frame KTcp e2e_dec fc) (map frame_of qs) ->
  concat chunks = concat (map req_adu qs) ->
  exists st', feed (t_recv base tcp e2e_dec fc) (t_init tcp) chunks = (st', ref_deliveries KTcp fc (map frame_of qs), true).
Proof. intros Hf Hc. apply C06_tcpascii.C06_tcp; [exact Hf|]. now rewrite Hc, map_map. Qed.

Lemma tcp_pk_ok : pk_ok packet_of tcp_adu delivery_of.
Proof.
  split; [intros q; split; reflexivity|].
  intros q o ro m (Ht & _ & Hu) Eo Eu Ha Hc Hl _. unfold tcp_adu.
  change (d_tid (delivery_of q)) with (q_tid q) in Eo. rewrite <- Eo, <- Eu.
  apply packet_spec; try assumption; lia.
Qed.

Lemma req_ok_wire sk cfg hosted q : req_ok sk cfg hosted q -> wire_ids q /\ pdu_ok (q_body q).
Proof. intros (Ht & Hp & Hu & (w & Hb) & _). split; [exact (conj Ht (conj Hp Hu))|exact (body_pdu_ok _ w Hb)]. Qed.

Definition block_u16 (b : block) : Prop :=
  match b with
  | BSeq s => Forall u16v (sb_vals s)
  | BSp s => Forall (fun kv => u16v (snd kv)) (sp_vals s)
  end.

Lemma d_get_in d k v : d_get d k = Some v -> exists k', In (k', v) d.
Proof.
  induction d as [|[k0 v0] t IH]; cbn [d_get]; [discriminate|].
  destruct (k0 =? k).
  - intros H. injection H as ->. exists k0. now left.
  - intros H. destruct (IH H) as [k' Hk]. exists k'. now right.
Qed.

Lemma blk_cell_u16 b k v : block_u16 b -> blk_cell b k = Some v -> u16v v.
Proof.
  destruct b as [sq|sp]; cbn [blk_cell block_u16]; intros H.
  - unfold Store_proofs.seq_cell. destruct (_ && _); [|discriminate]. intros E. apply nth_error_In in E.
    rewrite Forall_forall in H. exact (H _ E).
  - unfold Store_proofs.sp_cell. intros E. destruct (d_get_in _ _ _ E) as [k' Hk].
    rewrite Forall_forall in H. exact (H _ Hk).
Qed.

(* [nth_block] of a missing block is an empty one *)
Lemma nth_block_u16 c i : Forall block_u16 (cx_blocks c) -> block_u16 (nth_block c i).
Proof.
  intros H. unfold nth_block. set (d := BSeq _).
  destruct (nth_in_or_default i (cx_blocks c) d) as [Hin| ->]; [|constructor].
  rewrite Forall_forall in H. exact (H _ Hin).
Qed.

Lemma cells_ok_abs c : Forall block_u16 (cx_blocks c) -> cells_ok (abs c).
Proof. intros H b k v. apply blk_cell_u16, nth_block_u16, H. Qed.

Definition abs_units (l : units slavectx) : sunits := map (fun p => (fst p, abs (snd p))) l.

Definition store_ok (c : slavectx) : Prop := inv c /\ Forall block_u16 (cx_blocks c).

Lemma units_rel_abs l : Forall (fun p => store_ok (snd p)) l -> units_rel l (abs_units l).
Proof.
  induction 1 as [|[u c] t [Hi Hb] Ht IH]; [constructor|]. cbn [abs_units map fst snd].
  constructor; [|exact IH]. split; [exact Hi|]. split; [apply aeq_refl|now apply cells_ok_abs].
Qed.
