(* LockSerial_proofs.v — C15: every execution of well-bracketed calls is SERIAL.
   Whenever the lock is free the shared client state is quiescent and the transport log is a
   concatenation of whole per-call blocks; while a thread owns the lock, the shared state is what
   that thread alone made of a quiescent state; hence every call returns what it returns when run
   alone — its own reply, for calls that are [own_ok]. *)
From PM.theories Require Import Base Lock.
From PM.proofs Require Import Base_proofs Lock_proofs.
Open Scope list_scope.
Open Scope nat_scope.

Definition quiescent (s : shared) : Prop :=
  sh_lock s = None /\ sh_table s = [] /\ sh_fbuf s = [] /\ sh_peer s = [].

Definition own_result (t k : nat) (r : option frame) : Prop :=
  exists f, r = Some f /\ f_thr f = t /\ f_k f = k.

(* run alone against the in-order responsive peer, from ANY quiescent state and ANY values of the
   caller's locals, the call leaves the client quiescent and returns the reply to its own request *)
Definition own_ok (call : list lop) : Prop :=
  forall re t k s l s' l', quiescent s -> run_ops re t k s l call = Some (s', l') ->
  quiescent s' /\ own_result t k (lo_result l').

Lemma own_ok_intro call :
  (forall re t k tidc lg l,
     match run_ops re t k {| sh_lock := None; sh_tidc := tidc; sh_table := []; sh_fbuf := [];
                             sh_peer := []; sh_log := lg |} l call with
     | Some (s', l') => quiescent s' /\ own_result t k (lo_result l')
     | None => True
     end) -> own_ok call.
Proof.
  intros H re t k [lk tidc tb fb peer lg] l s' l' (Hl & Ht & Hf & Hp) Hr. cbn in Hl, Ht, Hf, Hp. subst.
  specialize (H re t k tidc lg l). rewrite Hr in H. exact H.
Qed.

Lemma run_ops_snoc : forall re t k ops s l o,
  run_ops re t k s l (ops ++ [o]) =
  match run_ops re t k s l ops with Some (s', l') => exec_op re t k s' l' o | None => None end.
Proof.
  induction ops as [|a r IH]; intros s l o; cbn.
  - destruct (exec_op re t k s l o) as [[s1 l1]|]; reflexivity.
  - destruct (exec_op re t k s l a) as [[s1 l1]|]; auto.
Qed.

Lemma run_ops_cc : forall re t k ops s l, Forall (eq ConnectCheck) ops -> run_ops re t k s l ops = Some (s, l).
Proof. induction ops as [|a r IH]; intros s l H; cbn; auto. inversion H; subst. cbn. auto. Qed.

Lemma block_cons : forall t k o r, block t k (o :: r) = block t k [o] ++ block t k r.
Proof. intros t k o r. destruct o; reflexivity. Qed.

Lemma block_app : forall t k a b, block t k (a ++ b) = block t k a ++ block t k b.
Proof.
  induction a as [|o r IH]; intros b; [reflexivity|].
  change ((o :: r) ++ b) with (o :: (r ++ b)). rewrite block_cons, (block_cons t k o r), IH, app_assoc. reflexivity.
Qed.

Lemma exec_log : forall re t k s l o s' l',
  exec_op re t k s l o = Some (s', l') -> sh_log s' = sh_log s ++ block t k [o].
Proof.
  intros re t k s l o s' l' H. destruct (is_lock_op o) eqn:Elo.
  - destruct o; try discriminate; cbn in H;
      [destruct (lock_acquire re t (sh_lock s))|destruct (lock_release t (sh_lock s))];
      inversion H; subst; cbn; rewrite app_nil_r; reflexivity.
  - destruct (exec_other re t k s l o Elo) as (s1 & l1 & E & _ & Hlog).
    rewrite H in E. inversion E; subst. exact Hlog.
Qed.

Lemma run_ops_log : forall re t k ops s l s' l',
  run_ops re t k s l ops = Some (s', l') -> sh_log s' = sh_log s ++ block t k ops.
Proof.
  induction ops as [|o r IH]; intros s l s' l' H; cbn in H.
  - inversion H; subst. cbn. rewrite app_nil_r. reflexivity.
  - destruct (exec_op re t k s l o) as [[s1 l1]|] eqn:E; [|discriminate].
    rewrite (IH _ _ _ _ H), (exec_log _ _ _ _ _ _ _ _ E). rewrite (block_cons t k o r), app_assoc. reflexivity.
Qed.

Lemma local_of_with_local : forall th prog o l, local_of (with_local th prog o l) = l.
Proof. intros th prog o l. destruct l; reflexivity. Qed.

Definition centry := (nat * nat * list lop)%type.
Definition cblk (e : centry) : list event := block (fst (fst e)) (snd (fst e)) (snd e).
Definition ctag (e : centry) : nat * nat := fst e.

(* Q instead of own_ok itself: the theorems take Q := "own_ok and a call of the program" and so
   learn that every closed block is a call of the program. *)
Section WithQ.
Variable Q : list lop -> Prop.
Hypothesis Q_own : forall c, Q c -> own_ok c.
Variable re : bool.

Definition idle (t : nat) (th : thread) : Prop :=
  match th_prog th with
  | [] :: _ => own_result t (th_k th) (th_result th)
  | (_ :: _) :: _ => Forall (eq ConnectCheck) (th_done th)
  | [] => True
  end.

Definition owner_run (s : shared) (closed : list centry) (t : nat) (th : thread) : Prop :=
  exists s0 l0, quiescent s0 /\ sh_log s0 = concat (map cblk closed) /\
                run_ops re t (th_k th) s0 l0 (th_done th) = Some (s, local_of th).

(* [t_calls]: the part of the current call already done and the part still to do make up a Q call;
   [t_closed]: the closed blocks of t are those of its earlier calls, or of the current one when it
   is about to return. *)
Record tinv (s : shared) (closed : list centry) (t : nat) (th : thread) : Prop := {
  t_calls : match th_prog th with
            | [] => th_done th = []
            | h :: rest => Q (th_done th ++ h) /\ Forall Q rest
            end;
  t_res : Forall (fun kr => own_result t (fst kr) (snd kr)) (th_results th) /\
          map fst (th_results th) = seq 0 (th_k th);
  t_closed : forall k' c, In (t, k', c) closed ->
             k' < th_k th \/ (k' = th_k th /\ exists rest, th_prog th = [] :: rest);
  t_state : if owns (sh_lock s) t then owner_run s closed t th else idle t th }.

Definition sinv (σ : state) : Prop :=
  exists closed, NoDup (map ctag closed) /\ Forall (fun e => Q (snd e)) closed /\
    (sh_lock (st_sh σ) = None -> quiescent (st_sh σ) /\ sh_log (st_sh σ) = concat (map cblk closed)) /\
    (forall t th, nth_error (st_thr σ) t = Some th -> tinv (st_sh σ) closed t th).

(* an empty call, or one made of connection checks only, cannot be own_ok: it returns whatever
   the locals held; so under Q such a call yields any conclusion about the result *)
Lemma q_cc_result : forall c t k r, Q c -> Forall (eq ConnectCheck) c -> own_result t k r.
Proof.
  intros c t k r Hq Hcc.
  set (l := {| lo_tid := 0%N; lo_resp := []; lo_result := r; lo_inflight := false |}).
  destruct (Q_own c Hq true t k (init_shared 0) l (init_shared 0) l) as [_ H].
  - repeat split.
  - apply run_ops_cc; auto.
  - exact H.
Qed.

Lemma idle_start : forall t prog k tid res, Forall Q prog ->
  idle t {| th_prog := prog; th_done := []; th_k := k; th_tid := tid; th_resp := []; th_result := None;
            th_inflight := false; th_results := res |}.
Proof.
  intros t [|[|o r] rest] k tid res H; cbn; auto. inversion H; subst. apply (q_cc_result []); auto.
Qed.

Lemma tinv_upd : forall {σ : state} {s' closed closed' t th th'},
  (forall m z, nth_error (st_thr σ) m = Some z -> tinv (st_sh σ) closed m z) ->
  nth_error (st_thr σ) t = Some th -> tinv s' closed' t th' ->
  s' = st_sh σ /\ closed' = closed \/ mine (sh_lock (st_sh σ)) t /\ mine (sh_lock s') t ->
  (forall m k c, m <> t -> In (m, k, c) closed' -> In (m, k, c) closed) ->
  forall m z, nth_error (upd (st_thr σ) t th') m = Some z -> tinv s' closed' m z.
Proof.
  intros σ s' closed closed' t th th' Htin Et Ht Hl Hc. apply (upd_forall Et Ht).
  intros m z Hne Hz. destruct (Htin m z Hz) as [H1 H2 H3 H4].
  constructor; [exact H1|exact H2|intros k c Hin; apply (H3 k c), Hc, Hin; exact Hne|].
  destruct Hl as [[-> ->]|[M M']]; [exact H4|].
  rewrite (mine_other _ _ _ M' Hne). rewrite (mine_other _ _ _ M Hne) in H4. exact H4.
Qed.

(* [closed'] may have gained the block of the current call, if the operation was its last *)
Lemma tinv_advance : forall {s} s' {closed} closed' {t th o r rest} l',
  tinv s closed t th -> th_prog th = (o :: r) :: rest ->
  (forall k' c, In (t, k', c) closed' -> In (t, k', c) closed \/ k' = th_k th /\ r = []) ->
  (let th' := with_local th (r :: rest) o l' in
   if owns (sh_lock s') t then owner_run s' closed' t th' else idle t th') ->
  tinv s' closed' t (with_local th (r :: rest) o l').
Proof.
  intros s s' closed closed' t th o r rest l' [T1 T2 T3 T4] Ep Hc Hst. rewrite Ep in T1.
  constructor; auto; cbn.
  - rewrite <- app_assoc. exact T1.
  - intros k' c Hin. destruct (Hc k' c Hin) as [Hin'|[-> ->]]; [left|right; eauto].
    destruct (T3 k' c Hin') as [|[_ [rs Hrs]]]; [assumption|]. rewrite Ep in Hrs. discriminate.
Qed.

Lemma sinv_init : forall tid0 P, Forall (Forall Q) P -> sinv (init tid0 P).
Proof.
  intros tid0 P HP. exists []. split; [constructor|]. split; [constructor|]. split.
  - intros _. split; [repeat split|reflexivity].
  - intros t th H. cbn in H. rewrite nth_error_map in H.
    destruct (nth_error P t) as [p|] eqn:E; cbn in H; [|discriminate]. inversion H; subst.
    assert (Hp : Forall Q p). { rewrite Forall_forall in HP. apply HP. eapply nth_error_In; eauto. }
    constructor; cbn.
    + destruct p as [|h rest]; auto. inversion Hp; auto.
    + split; [constructor|reflexivity].
    + intros k' c [].
    + apply idle_start, Hp.
Qed.

Lemma sinv_keep : forall {σ : state} s' {closed t th} th',
  NoDup (map ctag closed) -> Forall (fun e => Q (snd e)) closed ->
  (forall m z, nth_error (st_thr σ) m = Some z -> tinv (st_sh σ) closed m z) ->
  nth_error (st_thr σ) t = Some th ->
  (sh_lock s' = None -> quiescent s' /\ sh_log s' = concat (map cblk closed)) ->
  s' = st_sh σ \/ mine (sh_lock (st_sh σ)) t /\ mine (sh_lock s') t ->
  tinv s' closed t th' -> sinv {| st_sh := s'; st_thr := upd (st_thr σ) t th' |}.
Proof.
  intros σ s' closed t th th' Hnd Hq Htin Et Hfree Hl Ht. exists closed. split; [|split; [|split]]; auto.
  apply (tinv_upd Htin Et Ht); [destruct Hl; auto|auto].
Qed.

Lemma sinv_step : forall σ t σ', inv σ -> sinv σ -> step re σ t = Some σ' -> sinv σ'.
Proof.
  intros σ t σ' Hi (closed & Hnd & Hq & Hfree & Htin) Hs.
  destruct (step_cases re σ t σ' Hi Hs) as (th & Et & Hc). pose proof (Htin t th Et) as T.
  destruct Hc as [rest Ep Hrest Eo|r rest Ep Hw Eo Hfl|r rest Ep Hc Hrest El|d o r rest s' l' Ep Hrest El Ex Hl].
  - (* return *)
    apply (sinv_keep _ _ Hnd Hq Htin Et); auto.
    destruct T as [T1 [Ta Tb] T3 T4]. rewrite Ep in T1. rewrite Eo in T4. unfold idle in T4. rewrite Ep in T4.
    constructor; cbn [do_return th_prog th_done th_k th_results].
    + destruct rest as [|h2 r2]; auto. destruct T1 as [_ Tr]. inversion Tr; auto.
    + split; [apply Forall_app; auto|rewrite map_app, Tb, seq_S; reflexivity].
    + intros k' c Hin. destruct (T3 k' c Hin) as [|[-> _]]; left; lia.
    + rewrite Eo. apply idle_start, T1.
  - (* connection check *)
    apply (sinv_keep _ _ Hnd Hq Htin Et); auto.
    apply (tinv_advance _ _ _ T Ep); [auto|]. rewrite Eo.
    pose proof (t_state _ _ _ _ T) as T4. rewrite Eo in T4. unfold idle in T4. rewrite Ep in T4.
    assert (Hcc : Forall (eq ConnectCheck) (th_done th ++ [ConnectCheck])) by (apply Forall_app; auto).
    unfold idle. cbn. destruct r as [|o2 r2]; [|exact Hcc].
    pose proof (t_calls _ _ _ _ T) as T1. rewrite Ep in T1. apply (q_cc_result _ _ _ _ (proj1 T1) Hcc).
  - (* the free lock is taken: the bracket starts from a quiescent state *)
    destruct (Hfree El) as [Hq0 Hlog0]. pose proof (t_state _ _ _ _ T) as T4.
    rewrite El in T4. unfold idle in T4. rewrite Ep in T4.
    apply (sinv_keep _ _ Hnd Hq Htin Et); [discriminate|right; rewrite El; cbn; auto|].
    apply (tinv_advance _ _ _ T Ep); [auto|]. cbn [set_lock sh_lock owns]. rewrite Nat.eqb_refl.
    exists (st_sh σ), (local_of th). split; [exact Hq0|split; [exact Hlog0|]].
    cbn [with_local th_k th_done]. rewrite local_of_with_local, run_ops_snoc, run_ops_cc by exact T4. cbn. rewrite El. reflexivity.
  - (* an operation of the holder *)
    pose proof (t_state _ _ _ _ T) as T4. rewrite El in T4. cbn in T4. rewrite Nat.eqb_refl in T4.
    destruct T4 as (s0 & l0 & Hq0 & Hlog0 & Hrun).
    assert (Hrun' : run_ops re t (th_k th) s0 l0 (th_done th ++ [o]) = Some (s', l'))
      by (rewrite run_ops_snoc, Hrun; exact Ex).
    destruct Hl as [[El' ->]|(d' & El' & Hc)].
    + (* it closes: the call's block joins the closed blocks *)
      pose proof (t_calls _ _ _ _ T) as T1. rewrite Ep in T1. destruct T1 as [Tq _].
      destruct (Q_own _ Tq re t (th_k th) s0 l0 s' l' Hq0 Hrun') as [Hq' Hres].
      exists (closed ++ [(t, th_k th, th_done th ++ [o])]). cbn [st_sh st_thr]. split; [|split; [|split]].
      * rewrite map_app. apply NoDup_snoc; auto.
        intro Hin. apply in_map_iff in Hin. destruct Hin as ([[t1 k1] c1] & [= -> ->] & Hin).
        destruct (t_closed _ _ _ _ T _ _ Hin) as [|[_ [rs Hrs]]]; [lia|]. rewrite Ep in Hrs. discriminate.
      * apply Forall_app. split; [exact Hq|]. constructor; [exact Tq|constructor].
      * intros _. split; [exact Hq'|]. rewrite map_app, concat_app. cbn. rewrite app_nil_r.
        rewrite (run_ops_log _ _ _ _ _ _ _ _ Hrun'), Hlog0. reflexivity.
      * apply (tinv_upd Htin Et); [|right; rewrite El, El'; split; [reflexivity|exact I]|].
        -- apply (tinv_advance _ _ _ T Ep); [|rewrite El'; exact Hres].
           intros k' c Hin. apply in_app_or in Hin. destruct Hin as [|[[= <- _]|[]]]; auto.
        -- intros m k c Hne Hin. apply in_app_or in Hin.
           destruct Hin as [|[[= -> _]|[]]]; [assumption|congruence].
    + (* still inside *)
      apply (sinv_keep _ _ Hnd Hq Htin Et); [rewrite El'; discriminate|right; rewrite El, El'; cbn; auto|].
      apply (tinv_advance _ _ _ T Ep); [auto|]. rewrite El'. cbn [owns].
      rewrite Nat.eqb_refl. exists s0, l0. rewrite local_of_with_local. auto.
Qed.

Lemma sinv_reachable : forall σ0 σ, inv σ0 -> sinv σ0 -> reachable re σ0 σ -> sinv σ.
Proof.
  intros σ0 σ Hi Hs Hr. induction Hr; auto. apply (sinv_step σ t σ'); auto. apply (inv_reachable re σ0); auto.
Qed.

End WithQ.

Definition good_program (P : list (list (list lop))) : Prop :=
  Forall (Forall (fun c => well_bracketed c = true /\ own_ok c)) P.

Lemma good_program_wb : forall P, good_program P -> wb_program P.
Proof. intro P. apply Forall_impl. intro p. apply Forall_impl. intros c [H _]. exact H. Qed.

Definition QP (P : list (list (list lop))) (c : list lop) : Prop :=
  own_ok c /\ exists calls, In calls P /\ In c calls.

Lemma good_program_sinv : forall re tid0 P σ, good_program P -> reachable re (init tid0 P) σ ->
  inv σ /\ sinv (QP P) re σ.
Proof.
  intros re tid0 P σ HP Hr. pose proof (inv_init tid0 P (good_program_wb P HP)) as Hi. split.
  - apply (inv_reachable re _ _ Hi Hr).
  - apply (sinv_reachable (QP P) (fun c H => proj1 H) re _ _ Hi); [|exact Hr].
    apply sinv_init; [intros c H; exact (proj1 H)|].
    unfold good_program in HP. rewrite Forall_forall in *. intros p Hp. specialize (HP p Hp).
    rewrite Forall_forall in *. intros c Hc. split; [apply HP, Hc|exists p; auto].
Qed.
