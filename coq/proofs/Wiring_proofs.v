(* Wiring_proofs.v — configuration given at a documented entry point is what the serving code reads. *)
From PM.theories Require Import Base Ladder CorrFrontends Wiring.
From PM.Generated Require Import GenFrontends GenWiring.
From PM.proofs Require Import FrontendsC12_proofs.
Import ListNotations.
Open Scope string_scope.
Open Scope list_scope.

Lemma ctor_sees_eq : forall f p V (env : string -> option V),
  ctor_sees f env p = match ctor_src f p with Some k => env k | None => None end.
Proof. reflexivity. Qed.

Lemma ctor_sees_none : forall f p, ctor_src f p = None ->
  forall V (env : string -> option V), ctor_sees f env p = None.
Proof. intros f p H V env. rewrite ctor_sees_eq, H. reflexivity. Qed.

Lemma configured_t_given : forall s V (truthy : V -> bool) x d,
  user_configurable s = true -> truthy x = true -> configured_t s truthy (Some x) d = x.
Proof. intros s V truthy x d Hs Ht. destruct s; cbn in *; try discriminate; try rewrite Ht; reflexivity. Qed.

Lemma configured_t_default : forall s V (truthy : V -> bool) d, configured_t s truthy None d = d.
Proof. intros s V truthy d. destruct s; reflexivity. Qed.

(* `x or d` with a FALSE x silently serves the default *)
Lemma configured_t_false_value : forall p dn V (truthy : V -> bool) x d,
  truthy x = false -> configured_t (WOrDefault p dn) truthy (Some x) d = d.
Proof. intros p dn V truthy x d H. cbn. rewrite H. reflexivity. Qed.

Lemma py_truthy_no_override : forall V (ut : V -> bool) x, py_truthy false ut x = true.
Proof. reflexivity. Qed.

Lemma wparam_configurable : forall s p, wparam s = Some p -> user_configurable s = true.
Proof. intros s p H. destruct s; [reflexivity..|discriminate]. Qed.

Lemma mem_s_In : forall k l, mem_s k l = true -> In k l.
Proof.
  intros k l. induction l as [|h t IH]; cbn; [discriminate|].
  destruct (String.eqb_spec h k); [left; assumption|right; auto].
Qed.

Definition role_overrides (T : list (string * (bool * bool))) (role : string) : bool :=
  match role_kind role with Some k => kind_overrides T k | None => false end.

(* no value that travels through an `x or default` can be false *)
Lemma no_role_overrides : forall role, role_overrides truth_facts role = false.
Proof.
  intros role. unfold role_overrides, role_kind.
  destruct (String.eqb role "context"); [reflexivity|]. destruct (String.eqb role "framer"); reflexivity.
Qed.

(* one role of one factory: the constructor parameter the attribute is computed from receives the
   user's keyword of the role's name *)
Definition role_ok_b (f : factory) (roles : list (string * wsrc)) (role : string) : bool :=
  match assoc_s role roles with
  | Some s => match wparam s with
              | Some p => match ctor_src f p with Some k => String.eqb k role | None => false end
              | None => false
              end
  | None => false
  end.

Definition factory_ok_b (f : factory) : bool :=
  fa_registers f &&
  match assoc_s (fa_target f) server_wiring with
  | Some roles =>
      forallb (fun sf : string * frontend =>
                 if String.eqb (fst sf) (fa_target f)
                 then forallb (role_ok_b f roles) (required_roles (snd sf)) else true) servers
      && existsb (fun sf : string * frontend => String.eqb (fst sf) (fa_target f)) servers
  | None => false
  end.

Lemma factories_ok : forall f, In f factories -> factory_ok_b f = true.
Proof. apply forallb_forall. vm_compute. reflexivity. Qed.

Lemma truth_facts_ok : forallb (fun e : string * (bool * bool) => negb (fst (snd e)) && negb (snd (snd e))) truth_facts = true.
Proof. vm_compute. reflexivity. Qed.

Lemma decoder_facts_ok : forallb (fun e : string * (bool * bool) => fst (snd e) && snd (snd e)) decoder_facts = true.
Proof. vm_compute. reflexivity. Qed.

(* the documented entry points: sync 4, asyncio 4 minus the declared stub (serial), Twisted 3 (it has no TLS factory) *)
Definition entry_points : list string :=
  ["sync.StartTcpServer"; "sync.StartTlsServer"; "sync.StartUdpServer"; "sync.StartSerialServer";
   "async_io.StartTcpServer"; "async_io.StartTlsServer"; "async_io.StartUdpServer";
   "asynchronous.StartTcpServer"; "asynchronous.StartUdpServer"; "asynchronous.StartSerialServer"].

Lemma factory_role_spec : forall f fe role,
  In f factories -> In (fa_target f, fe) servers -> In role (required_roles fe) ->
  exists roles s p, assoc_s (fa_target f) server_wiring = Some roles /\ assoc_s role roles = Some s /\
    wparam s = Some p /\ ctor_src f p = Some role.
Proof.
  intros f fe role Hf Hs Hr.
  pose proof (factories_ok f Hf) as H. unfold factory_ok_b in H. apply andb_prop in H. destruct H as [_ H].
  destruct (assoc_s (fa_target f) server_wiring) as [roles|]; [|discriminate].
  apply andb_prop in H. destruct H as [H _]. rewrite forallb_forall in H.
  specialize (H (fa_target f, fe) Hs). cbn [fst snd] in H. rewrite String.eqb_refl in H.
  rewrite forallb_forall in H. specialize (H role Hr). unfold role_ok_b in H.
  destruct (assoc_s role roles) as [s|] eqn:Es; [|discriminate].
  destruct (wparam s) as [p|] eqn:Ep; [|discriminate].
  destruct (ctor_src f p) as [k|] eqn:Ek; [|discriminate].
  apply String.eqb_eq in H. subst k. exists roles, s, p. auto.
Qed.

(* if the user passed x under the role's name, x — not a default — is what the constructor's `x or d` /
   `kwargs.get` hands to the handlers, WHATEVER user-level truth value x has (the classes that can
   travel there define neither __bool__ nor __len__ and no metaclass) *)
Theorem entry_point_serves_user_value : forall f fe role,
  In f factories -> In (fa_target f, fe) servers -> In role (required_roles fe) ->
  exists roles s p, assoc_s (fa_target f) server_wiring = Some roles /\ assoc_s role roles = Some s /\
    wparam s = Some p /\
    forall V (env : string -> option V) (user_truth : V -> bool) (d : V),
      (forall x, env role = Some x ->
         configured_t s (py_truthy (role_overrides truth_facts role) user_truth) (ctor_sees f env p) d = x) /\
      (env role = None ->
         configured_t s (py_truthy (role_overrides truth_facts role) user_truth) (ctor_sees f env p) d = d).
Proof.
  intros f fe role Hf Hs Hr.
  destruct (factory_role_spec f fe role Hf Hs Hr) as (roles & s & p & H1 & H2 & Hp & Hsrc).
  exists roles, s, p. repeat (split; [assumption|]).
  intros V env ut d. rewrite ctor_sees_eq, Hsrc, no_role_overrides.
  split; [intros x ->|intros ->].
  - apply configured_t_given; [exact (wparam_configurable s p Hp)|reflexivity].
  - apply configured_t_default.
Qed.

(* the same when the user builds the server object directly *)
Theorem constructor_serves_user_value : forall srv fe role,
  In (srv, fe) servers -> In role (required_roles fe) ->
  exists roles s, assoc_s srv server_wiring = Some roles /\ assoc_s role roles = Some s /\
    forall V (user_truth : V -> bool) (x d : V),
      configured_t s (py_truthy (role_overrides truth_facts role) user_truth) (Some x) d = x /\
      configured_t s (py_truthy (role_overrides truth_facts role) user_truth) None d = d.
Proof.
  intros srv fe role Hs Hr.
  destruct (server_roles_wired srv fe Hs) as (roles & H1 & H). destruct (H role Hr) as (s & H2 & Hu).
  exists roles, s. repeat (split; [assumption|]).
  intros V ut x d. rewrite no_role_overrides.
  split; [apply configured_t_given; [exact Hu|reflexivity]|apply configured_t_default].
Qed.

Lemma context_required : forall fe, In "context" (required_roles fe).
Proof. intros fe. apply mem_s_In. destruct fe; reflexivity. Qed.
Lemma ignore_required : forall fe, In "ignore_missing_slaves" (required_roles fe).
Proof. intros fe. apply mem_s_In. destruct fe; reflexivity. Qed.
Lemma framer_required : forall fe, In "framer" (required_roles fe).
Proof. intros fe. apply mem_s_In. destruct fe; reflexivity. Qed.
Lemma identity_required : forall fe, In "identity" (required_roles fe).
Proof. intros fe. apply mem_s_In. destruct fe; reflexivity. Qed.
Lemma broadcast_required : forall fe, fe <> TwTcp -> fe <> TwUdp -> In "broadcast_enable" (required_roles fe).
Proof. intros fe H1 H2. apply mem_s_In. destruct fe; congruence || reflexivity. Qed.

(* the n-th factory of the table, as a witness: a record written out in full is re-checked string by
   string at every use *)
Definition factory_at (n : nat) : factory := nth n factories (Build_factory "" "" [] [] [] false false "").

Example wiring_nonvacuous :
  length factories = 10%nat /\ (9 <= length servers)%nat /\
  (exists f, In f factories /\ fa_name f = "sync.StartTcpServer" /\
     ctor_sees f (fun k => if String.eqb k "broadcast_enable" then Some 1%nat else None) "broadcast_enable" = Some 1%nat /\
     ctor_sees f (fun k => if String.eqb k "context" then Some 7%nat else None) "context" = Some 7%nat /\
     ctor_sees f (fun k => if String.eqb k "framer" then Some 9%nat else None) "framer" = Some 9%nat).
Proof.
  split; [reflexivity|]. split; [apply Nat.leb_le; reflexivity|].
  exists (factory_at 0). split; [apply (nth_error_In factories 0); reflexivity|]. repeat split.
Qed.
