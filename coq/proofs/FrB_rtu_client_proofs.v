(* FrB_rtu_client_proofs.v — what users that instantiate an abstract framer with the RTU model (client /
   transaction theorems) need: decoder tables whose size rules are prefix-stable and return at least 4
   ([table_simple]), the invariant of the states reachable by rtu_recv / resetFrame ([rtu_inv]), and that on
   such tables and states a call lets nothing of the framer's own escape. *)
From PM.theories Require Import Base FrBCode Crc FrBCommon FrRtu FrSpecB.
From PM.Generated Require Import GenFramerB.
From PM.proofs Require Import Base_proofs Crc_proofs FrB_rtu_proofs.
Open Scope list_scope.
Open Scope Z_scope.

(* RFixed n with 4 <= n, or RByteCount p with 1 <= p *)
Definition rule_good_b (r : size_rule) : bool := simple_rule r && rule_ge4 r.

Definition table_simple (dc : decoder_code) : bool :=
  forallb (fun row => rule_good_b (cr_rule row)) (dc_classes dc) && rule_good_b (dc_default dc).

(* the response table without the two classes that override calculateRtuFrameSize *)
Definition client_simple : decoder_code :=
  {| dc_classes := filter (fun row => rule_good_b (cr_rule row)) (dc_classes client_decoder);
     dc_subclasses := dc_subclasses client_decoder;
     dc_default := dc_default client_decoder |}.

Lemma server_simple_ok : table_simple server_decoder = true. Proof. vm_compute. reflexivity. Qed.
Lemma client_simple_ok : table_simple client_simple = true. Proof. vm_compute. reflexivity. Qed.

Lemma client_simple_excludes :
  map cr_name (filter (fun row => negb (rule_good_b (cr_rule row))) (dc_classes client_decoder))
  = ["ReadFifoQueueResponse"%string; "ReadDeviceInformationResponse"%string] /\
  table_simple client_decoder = false.
Proof. split; vm_compute; reflexivity. Qed.

Lemma table_simple_lookup dc fc : table_simple dc = true -> rule_good_b (lookup_rule dc fc) = true.
Proof.
  unfold table_simple. intros H. apply andb_prop in H as [H1 H2].
  apply (lookup_rule_P (fun r => rule_good_b r = true)); [|exact H2].
  apply Forall_forall, forallb_forall, H1.
Qed.

Lemma table_simple_rule dc fc : table_simple dc = true -> simple_rule (lookup_rule dc fc) = true.
Proof. intros H. pose proof (table_simple_lookup dc fc H) as G. unfold rule_good_b in G. apply andb_prop in G. tauto. Qed.

Lemma table_simple_known dc : table_simple dc = true -> known_rules dc.
Proof.
  unfold table_simple, rule_good_b. intros H. apply andb_prop in H as [H1 H2].
  apply known_of_ge4; [|apply andb_prop in H2; tauto].
  rewrite forallb_forall in *. intros row Hin. specialize (H1 row Hin). apply andb_prop in H1. tauto.
Qed.

Lemma good_rule_exn r data e : simple_rule r = true -> frame_size r data = Raise e -> e = IndexError.
Proof.
  destruct r as [k|p| | |]; cbn; try discriminate; intros _ H.
  destruct (py_index data p) eqn:E; [discriminate H|]. cbn [bind] in H. inversion H. subst. eapply py_index_exn. exact E.
Qed.

Lemma lookup_rows_filter (P : class_row -> bool) rows fc :
  (forall row, In row rows -> cr_fc row = fc -> P row = true) ->
  forall acc, lookup_rows (filter P rows) fc acc = lookup_rows rows fc acc.
Proof.
  induction rows as [|row t IH]; intros H acc; [reflexivity|]. cbn [filter lookup_rows].
  destruct (P row) eqn:Ep.
  - cbn [lookup_rows]. apply IH. intros r Hin. apply H. right. exact Hin.
  - destruct (cr_fc row =? fc) eqn:Ef.
    + apply Z.eqb_eq in Ef. rewrite (H row (or_introl eq_refl) Ef) in Ep. discriminate Ep.
    + apply IH. intros r Hin. apply H. right. exact Hin.
Qed.

Lemma client_simple_lookup fc : fc <> 24 -> fc <> 43 -> lookup_rule client_simple fc = lookup_rule client_decoder fc.
Proof.
  intros H24 H43. unfold lookup_rule, client_simple. cbn [dc_classes dc_default].
  rewrite lookup_rows_filter; [reflexivity|].
  assert (B : forallb (fun row => rule_good_b (cr_rule row) || (cr_fc row =? 24) || (cr_fc row =? 43)) (dc_classes client_decoder) = true)
    by (vm_compute; reflexivity).
  rewrite forallb_forall in B. intros row Hin Hfc. specialize (B row Hin). rewrite Hfc in B.
  replace (fc =? 24) with false in B by lia. replace (fc =? 43) with false in B by lia.
  rewrite !orb_false_r in B. exact B.
Qed.

(* a header with uid but no len (what a raising populateHeader leaves) makes isFrameReady raise KeyError: excluded *)
Definition rtu_inv (st : rstate) : Prop :=
  r_hdr st = hdr_empty \/ r_hdr st = r_hdr rtu_init \/
  (exists u n, h_uid (r_hdr st) = Some u /\ h_len (r_hdr st) = Some n /\ r_buf st <> []).

Lemma rtu_inv_init : rtu_inv rtu_init. Proof. right. left. reflexivity. Qed.
Lemma rtu_inv_reset st : rtu_inv (rtu_reset st). Proof. left. reflexivity. Qed.
Lemma rtu_inv_empty buf : rtu_inv {| r_buf := buf; r_hdr := hdr_empty |}. Proof. left. reflexivity. Qed.

Lemma rtu_inv_populated buf u n c : buf <> [] ->
  rtu_inv {| r_buf := buf; r_hdr := {| h_uid := Some u; h_len := Some n; h_crc := c |} |}.
Proof. intros H. right. right. exists u, n. repeat split. exact H. Qed.

Theorem rtu_empty_buffer_header st f : rtu_inv st -> r_buf st = [] -> hdr_waiting f (r_hdr st).
Proof. intros [H|[H|(u & n & _ & _ & H)]] Hb; [left; exact H|right; left; exact H|congruence]. Qed.

(* what processIncomingPacket may let escape: ModbusIOException (decoder returned None) or what
   decoder.decode itself raised *)
Definition exit_ok (cfg : fcfg) (x : fexit) : Prop :=
  x = FOk \/ x = FExn ModbusIOExc \/
  (exists pdu e, cf_dec cfg pdu = DRaise e /\ x = FExn e) \/
  (exists pdu, cf_dec cfg pdu = DMissing /\ x = FMissing).

Lemma rtu_ready_safe cfg st st1 r : table_simple (cf_rules cfg) = true -> rtu_inv st ->
  rtu_ready cfg st = (st1, r) -> (exists b, r = Ok b) /\ rtu_inv st1.
Proof.
  intros Ht Hi R. destruct (rtu_ready_cases st) as [L | [(u & fc & t & ->) | [L He]]].
  - rewrite rtu_ready_short in R by exact L. inversion R. subst. split; [eexists; reflexivity|exact Hi].
  - rewrite rtu_ready_fresh in R.
    pose proof (fun e => good_rule_exn _ (u :: fc :: t) e (table_simple_rule _ (zb fc) Ht)) as G.
    destruct (frame_size _ _) as [size|e]; [|rewrite (G e eq_refl) in R]; inversion R; subst;
      (split; [eexists; reflexivity|]); [apply rtu_inv_populated; discriminate|apply rtu_inv_empty].
  - rewrite rtu_ready_pending in R by assumption. inversion R. subst. split; [|exact Hi].
    destruct Hi as [Hi|[Hi|(u & n & _ & -> & _)]]; [rewrite Hi in He; discriminate He|rewrite Hi|]; eexists; reflexivity.
Qed.

Lemma rtu_check_safe cfg u fc t h st2 r : table_simple (cf_rules cfg) = true -> wfb (u :: fc :: t) = true ->
  rtu_check cfg {| r_buf := u :: fc :: t; r_hdr := h |} = (st2, r) -> exists b, r = Ok b.
Proof.
  intros Ht Hw C. destruct (frame_size (lookup_rule (cf_rules cfg) (zb fc)) (u :: fc :: t)) as [size|e] eqn:Fs.
  - pose proof (size_ge4 _ _ _ _ (table_simple_known _ Ht) Fs).
    destruct (rtu_check_sized cfg u fc t h size Hw Fs ltac:(lia)) as [c E]. cbv zeta in E. rewrite E in C.
    destruct (_ <=? _); [destruct (crc_ok _)|]; inversion C; eexists; reflexivity.
  - rewrite (rtu_check_unsized cfg u fc t h e Fs), (good_rule_exn _ _ _ (table_simple_rule _ _ Ht) Fs) in C.
    inversion C. eexists. reflexivity.
Qed.

Lemma rtu_stop_safe cfg st st' x : table_simple (cf_rules cfg) = true -> wfb (r_buf st) = true -> rtu_inv st ->
  rtu_stop cfg st st' x ->
  exit_ok cfg x /\ rtu_inv st' /\
  (x <> FOk -> exists u p rest, r_buf st' = spec_adu_rtu u p ++ rest /\ crc_ok (spec_adu_rtu u p) = true).
Proof.
  intros Ht Hw Hi [st1 r R _|st1 st2 e R C|st1 st2 R C _|u body rest st2 Eb Hwb B2 Hu Hl Hd].
  - destruct (rtu_ready_safe cfg st st1 r Ht Hi R) as ((b & ->) & Hi1).
    split; [left; reflexivity|]. split; [exact Hi1|congruence].
  - exfalso. destruct (rtu_ready_true _ _ _ R) as (u & fc & t & h1 & Eb & ->). rewrite Eb in Hw.
    destruct (rtu_check_safe cfg u fc t h1 st2 _ Ht Hw C) as (b & Hb). discriminate Hb.
  - split; [left; reflexivity|]. split; [apply rtu_inv_empty|congruence].
  - split; [|split].
    + destruct (cf_dec cfg body) eqn:D; [congruence|right; left; reflexivity| |]; right; right; [left|right]; eauto.
    + right. right. exists (zb u), (zlen (spec_adu_rtu u body)). repeat split; try assumption.
      rewrite B2, Eb. unfold spec_adu_rtu, with_crc. discriminate.
    + intros _. exists u, body, rest. split; [congruence|exact (adu_crc_ok _ _ Hwb)].
Qed.

Definition two_frames (b : bytes) : Prop :=
  exists pre u1 p1 mid u2 p2 rest,
    b = pre ++ spec_adu_rtu u1 p1 ++ mid ++ spec_adu_rtu u2 p2 ++ rest /\
    crc_ok (spec_adu_rtu u1 p1) = true /\ crc_ok (spec_adu_rtu u2 p2) = true.

(* b: the bytes the call saw, b': what it left; what it delivered lies in front of the frame it raised on *)
Definition raised_at (b b' : bytes) (new : list delivered) : Prop :=
  exists u p pre rest, b = pre ++ spec_adu_rtu u p ++ rest /\ b' = spec_adu_rtu u p ++ rest /\
                       crc_ok (spec_adu_rtu u p) = true /\ forall d, In d new -> rtu_justified pre d.

Lemma rtu_recv_safe cfg st chunk st' ds x :
  table_simple (cf_rules cfg) = true -> wfb (r_buf st ++ chunk) = true -> rtu_inv st ->
  rtu_recv cfg st chunk = (st', ds, x) ->
  exit_ok cfg x /\ x <> FOutOfFuel /\ rtu_inv st' /\ (exists pre, r_buf st ++ chunk = pre ++ r_buf st') /\
  (x <> FOk -> raised_at (r_buf st ++ chunk) (r_buf st') ds).
Proof.
  intros Ht Hw Hi R.
  destruct (rtu_recv_run cfg st chunk (table_simple_known _ Ht) Hw) as (pre & new & st0 & st1 & x1 & Eb & H0 & J & S & E).
  rewrite E in R. inversion R. subst. clear R. rewrite Eb, wfb_app in Hw. apply andb_prop in Hw as [_ Hw].
  destruct (rtu_stop_safe cfg st0 st' x Ht Hw) as (Hx & Hi' & Hr); [|exact S|].
  { destruct H0 as [-> | H0]; [|left; exact H0].
    destruct Hi as [Hi|[Hi|(u & n & Hu & Hn & Hb)]]; [left; exact Hi|right; left; exact Hi|].
    right. right. exists u, n. repeat split; try assumption. cbn [r_buf]. destruct (r_buf st); [congruence|discriminate]. }
  rewrite <- (rtu_stop_buf _ _ _ _ S) in Eb.
  split; [exact Hx|]. split; [exact (rtu_stop_fuel _ _ _ _ S)|]. split; [exact Hi'|]. split; [exists pre; exact Eb|].
  intros Hne. destruct (Hr Hne) as (u & p & rest & E' & Hok). exists u, p, pre, rest.
  rewrite Eb, E'. repeat split; [exact Hok|apply Forall_forall, J].
Qed.

Theorem rtu_raises_only_io cfg st chunk st' ds x :
  table_simple (cf_rules cfg) = true -> wfb (r_buf st ++ chunk) = true -> rtu_inv st ->
  rtu_recv cfg st chunk = (st', ds, x) ->
  exit_ok cfg x /\ x <> FOutOfFuel /\ rtu_inv st' /\ exists pre, r_buf st ++ chunk = pre ++ r_buf st'.
Proof. intros Ht Hw Hi R. destruct (rtu_recv_safe cfg st chunk st' ds x Ht Hw Hi R) as (H1 & H2 & H3 & H4 & _). auto. Qed.

(* ClientDecoder.decode catches everything *)
Corollary rtu_raises_only_io_total cfg st chunk st' ds x :
  table_simple (cf_rules cfg) = true -> wfb (r_buf st ++ chunk) = true -> rtu_inv st ->
  (forall pdu, cf_dec cfg pdu = DMsg \/ cf_dec cfg pdu = DNone) ->
  rtu_recv cfg st chunk = (st', ds, x) -> x = FOk \/ x = FExn ModbusIOExc.
Proof.
  intros Ht Hw Hi Hd R. destruct (rtu_raises_only_io cfg st chunk st' ds x Ht Hw Hi R) as (Hx & _).
  destruct Hx as [->|[->|[(p & e & D & _)|(p & D & _)]]]; [left; reflexivity|right; reflexivity| |];
    destruct (Hd p) as [E|E]; rewrite E in D; discriminate D.
Qed.

Theorem rtu_inv_recv cfg st chunk st' ds x :
  table_simple (cf_rules cfg) = true -> wfb (r_buf st ++ chunk) = true -> rtu_inv st ->
  rtu_recv cfg st chunk = (st', ds, x) -> rtu_inv st'.
Proof. intros Ht Hw Hi R. destruct (rtu_recv_safe cfg st chunk st' ds x Ht Hw Hi R) as (_ & _ & H & _). exact H. Qed.

Theorem rtu_whole_frame_any cfg st u pdu : rtu_inv st -> r_buf st = [] -> valid_frame cfg true u pdu ->
  rtu_recv cfg st (spec_adu_rtu u pdu) = ({| r_buf := []; r_hdr := hdr_empty |}, [(pdu, zb u)], FOk).
Proof.
  intros Hi Hb V. pose proof (rtu_empty_buffer_header st (spec_adu_rtu u pdu) Hi Hb) as Hh.
  destruct st as [b h]. cbn [r_buf r_hdr] in *. subst b. exact (rtu_whole_frame_waiting cfg h u pdu V Hh).
Qed.

Theorem rtu_raise_position cfg st chunk st' ds x :
  table_simple (cf_rules cfg) = true -> wfb (r_buf st ++ chunk) = true -> rtu_inv st ->
  rtu_recv cfg st chunk = (st', ds, x) -> x <> FOk -> raised_at (r_buf st ++ chunk) (r_buf st') ds.
Proof. intros Ht Hw Hi R. destruct (rtu_recv_safe cfg st chunk st' ds x Ht Hw Hi R) as (_ & _ & _ & _ & H). exact H. Qed.

Theorem rtu_one_frame_clean cfg st chunk st' ds x :
  table_simple (cf_rules cfg) = true -> wfb (r_buf st ++ chunk) = true -> rtu_inv st ->
  ~ two_frames (r_buf st ++ chunk) ->
  rtu_recv cfg st chunk = (st', ds, x) -> x <> FOk -> ds = [].
Proof.
  intros Ht Hw Hi H2 R Hne.
  destruct (rtu_raise_position cfg st chunk st' ds x Ht Hw Hi R Hne) as (u & p & pre & rest & E1 & _ & Hok & Hj).
  destruct ds as [|d ds']; [reflexivity|]. exfalso. apply H2.
  destruct (Hj d (or_introl eq_refl)) as (u1 & pre1 & rest1 & Ep & _ & Hok1 & _).
  exists pre1, u1, (fst d), rest1, u, p, rest. split; [|split; assumption].
  rewrite E1, Ep, <- !app_assoc. reflexivity.
Qed.

Example rtu_client_nonvacuous :
  let cfg := {| cf_dec := fun _ => DMsg; cf_rules := client_simple; cf_units := [1]; cf_single := false |} in
  table_simple (cf_rules cfg) = true /\ rtu_inv rtu_init /\ valid_frame cfg true 1 [3; 2; 0; 7]%N /\
  valid_frame cfg true 1 [131; 2]%N /\ ~ two_frames (spec_adu_rtu 1 [131; 2]%N).
Proof.
  cbv zeta. split; [exact client_simple_ok|]. split; [exact rtu_inv_init|].
  split; [|split]; try (apply valid_frame_intro; reflexivity).
  intros (pre & u1 & p1 & mid & u2 & p2 & rest & E & _).
  apply (f_equal (@length N)) in E. unfold spec_adu_rtu, with_crc in E. rewrite !app_length in E. cbn [length] in E. lia.
Qed.
