(* The serial server path: the handler loop over the hosted datastores is FrBaseA.feed + the callback (empty
   reads skipped, resetFrame never triggered); ASCII packer and chunking independence (C03_build_ascii, C06_ascii). *)
From PM.theories Require Import Base Expr Struct FrBaseA FrTcp FrSpecA Lrc FrAscii PduCls PduSpec Pdu CorrPdu Store Exec ExecSpec ExecView
                                Server EndToEnd EndToEndSerial CorrE2E CorrE2ESerial.
From PM.Generated Require Import GenFramerA.
From PM.Generated Require GenServer.
From PM.proofs Require Import Base_proofs Pdu_proofs Exec_proofs Exec_req_proofs Server_proofs EndToEnd_adapt_proofs EndToEnd_spec_proofs
                              EndToEnd_proofs.
From PM.Props Require C01 C03_tcpascii C06_tcpascii.
Open Scope string_scope.
Open Scope list_scope.
Open Scope Z_scope.

(* the serial front-end (threaded ModbusSingleRequestHandler) *)
Definition serial_fes : list skel := [GenServer.sync_serial].

Lemma serial_fe_ok sk : In sk serial_fes -> fe_ok sk.
Proof.
  intros [<-|[]]. split; [|reflexivity]. cbv [all_fes GenServer.frontends map snd]. cbn [In]. tauto.
Qed.

(* the instance of [item] for requests to a served unit whose PDU consists of bytes *)
Definition item_ok (k : kind) (sk : skel) (cfg : scfg) (hosted : list Z) (fc : FrBaseA.cfg) (q : e2e_req) : Prop :=
  (req_ok sk cfg hosted q /\ wfb (sreq_pdu (q_body q)) = true) \/
  (frame_wf k (frame_of q) /\ spec_accepts k fc (q_uid q) = false).

Lemma ascii_frames sk cfg hosted fc qs : Forall (item_ok KAscii sk cfg hosted fc) qs ->
  Forall (stream_frame KAscii e2e_dec fc) (map frame_of qs).
Proof.
  apply stream_frames; [now right|]. intros q [Hq Hb]. destruct (req_ok_wire _ _ _ q Hq). auto.
Qed.

Lemma run_serial_handle {FS} (recv : FrBaseA.cfg -> FS -> bytes -> FS * list delivery * outc) pk sk cfg :
  In sk all_fes -> forall chunks st l st' ds l' b,
  feed (recv (framer_cfg sk cfg l)) st (filter nonempty chunks) = (st', ds, true) ->
  handle_all pk sk cfg l ds = (l', b, None) ->
  run_serial recv pk sk cfg st l chunks = result l' b st'.
Proof.
  intros Hsk. eapply (run_serial_feed _ (handle_one pk sk cfg)); try reflexivity.
  intros s d s' b. now apply handle_one_keys.
Qed.

(* a handler that resets the frame when the framer raises behaves like the bare framer as long as
   nothing is raised *)
Lemma feed_reset_h {FS} (recv : FS -> bytes -> FS * list delivery * outc) (reset : FS -> FS) :
  forall chunks st st' ds,
  feed recv st chunks = (st', ds, true) ->
  feed (fun s c => match recv s c with (s', d, FrBaseA.Exc e) => (reset s', d, FrBaseA.Exc e) | r => r end) st chunks = (st', ds, true).
Proof.
  induction chunks as [|c cs IH]; intros st st' ds H; [exact H|].
  cbn [feed] in *. destruct (recv st c) as [[s1 d1] o].
  destruct (feed recv s1 cs) as [[s2 d2] ok] eqn:Ef. injection H as <- <- Hflag.
  destruct o; try discriminate Hflag. subst ok. now rewrite (IH s1 s2 d2 Ef).
Qed.

(* a serial packer: the PDU of the response object, framed by [build] with the unit id *)
Lemma serial_pk_ok (build : Z -> Z -> bytes -> res bytes) (sadu : Z -> bytes -> bytes) :
  (forall uid fc data, 0 <= uid < 256 -> 0 <= fc < 256 -> wfb data = true ->
     build uid fc data = Ok (sadu uid (Z.to_N fc :: data))) ->
  pk_ok (fun o ro => do fc <- obj_fc ro; do data <- py_encode ro; build (o_uid o) fc data)
        (fun q pdu => sadu (q_uid q) pdu) (fun q => spec_delivery KAscii (frame_of q)).
Proof.
  intros Hb. split; [intros q; split; reflexivity|].
  intros q o ro m (_ & _ & Hu) _ Eu Ha Hc _ Hw.
  destruct (py_pdu_parts ro _ (C01.C01_encode_conforms ro m Hc Ha)) as (fc & data & Hfc & Hr & Hd & Hp).
  rewrite Hfc, Hd. cbn [bind]. rewrite Hp in *. apply wfb_cons in Hw as [_ Hw].
  rewrite Eu. apply Hb; [lia|lia|exact Hw].
Qed.

Lemma ascii_pk_ok : pk_ok packet_ascii ascii_adu (fun q => spec_delivery KAscii (frame_of q)).
Proof. exact (serial_pk_ok (a_build lrc ascii) spec_adu_ascii C03_tcpascii.C03_build_ascii). Qed.

Lemma feed_ascii fc qs chunks : Forall (stream_frame KAscii e2e_dec fc) (map frame_of qs) ->
  concat chunks = concat (map req_adu_ascii qs) ->
  exists st', feed (a_recv_h base lrc ascii e2e_dec fc) (a_init ascii) (filter nonempty chunks)
              = (st', ref_deliveries KAscii fc (map frame_of qs), true).
Proof.
  intros Hf Hc. destruct (C06_tcpascii.C06_ascii e2e_dec fc (map frame_of qs) (filter nonempty chunks) Hf) as (st' & Hfeed).
  { now rewrite concat_filter_nonempty, Hc, map_map. }
  exists st'. exact (feed_reset_h (a_recv base lrc ascii e2e_dec fc) (a_reset ascii) _ _ _ _ Hfeed).
Qed.
