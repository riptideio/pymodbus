(* ClientE2E_proofs.v — for the end-to-end statement of the TCP client (Props/C08_e2e.v): the framer's decoder oracle
   instantiated with the PDU decoder model, and the shape of a specified response PDU. *)
From PM.theories Require Import Base PduSpec Pdu FrBaseA.
Open Scope list_scope.
Open Scope Z_scope.

(* ClientDecoder.decode; the wrapper swallows every exception: the last branch is dead (C08_decoder_never_raises) *)
Definition pdu_dec (p : bytes) : FrBaseA.dres :=
  match py_decode_wrapper false p with
  | Ok (Some o) => FrBaseA.DMsg (match obj_fc o with Ok fc => fc | Raise _ => 0 end)
  | Ok None => FrBaseA.DNone
  | Raise e => FrBaseA.DRaise e
  end.

(* only the exception response has a first byte >= 128, and it carries one more byte *)
Lemma spec_pdu_head (m : PduSpec.msg) :
  exists fcb data, spec_pdu m = fcb :: data /\ (128 <= Z.of_N fcb -> length data = 1%nat).
Proof.
  destruct m; cbn [spec_pdu app]; eexists; eexists; (split; [reflexivity|]); intro H; try (cbn in H; lia).
  reflexivity.
Qed.
