(* FrA_ascii_proofs.v — lemmas about the ASCII-framer model instantiated with the GENERATED
   code records [GenFramerA.ascii], [lrc], [base].  The bridge lemmas are proved by
   computation on the generated terms: a changed delimiter, slice bound (`+ 2`, `end - 2`),
   comparison, a dropped checkLRC or a changed branch structure breaks them. *)
From PM.theories Require Import Base Expr Struct FrBaseA Lrc FrAscii FrSpecA.
From PM.Generated Require Import GenFramerA.
From PM.proofs Require Import Base_proofs Struct_proofs FrA_lrc_proofs FrA_stream_proofs.
From Coq Require Import ZifyBool.
Open Scope list_scope.
Open Scope Z_scope.
(* lia also decides the goals with / 16 and mod 16 below (hex digits of a byte) *)
Ltac Zify.zify_post_hook ::= Z.to_euclidean_division_equations.

Lemma ascii_skel_ok : a_skel ascii = ascii_skel_expected.
Proof. reflexivity. Qed.
Lemma ascii_pieces_ok : a_build_pieces ascii = ascii_pieces_expected /\ a_build_upper ascii = true.
Proof. split; reflexivity. Qed.
Lemma ascii_check_uses_lrc : a_check_lrc ascii = true.
Proof. reflexivity. Qed.

Definition ahdr0 : ahdr := {| a_lrc := None; a_len := 0; a_uid := 0 |}.
Definition CR : N := 13%N.
Definition LF : N := 10%N.
Definition COLON : N := 58%N.

Lemma a_ready_eq st : a_isready ascii st = (Z.of_nat (length (a_buf st)) >? 1).
Proof. apply z2b_b2z. Qed.

Lemma a_advance_eq st :
  a_advance ascii st = {| a_buf := pyfrom (a_buf st) (a_len (a_hdr st) + 2); a_hdr := ahdr0 |}.
Proof. reflexivity. Qed.
Lemma a_reset_eq st : a_reset ascii st = {| a_buf := []; a_hdr := ahdr0 |}.
Proof. reflexivity. Qed.
Lemma a_dropone_eq st : a_dropone ascii st = {| a_buf := pyfrom (a_buf st) 1; a_hdr := ahdr0 |}.
Proof. reflexivity. Qed.
Lemma a_droptest_eq st : beval (aenv ascii st) (a_droptest ascii) = negb (a_len (a_hdr st) =? 0).
Proof. apply z2b_b2z. Qed.
Lemma a_getframe_eq st :
  a_getframe ascii st =
  if a_len (a_hdr st) - 2 >? 0 then a2b_hex (pyslice (a_buf st) 3 (a_len (a_hdr st) - 2)) else Ok [].
Proof. unfold a_getframe. now rewrite <- (z2b_b2z (_ >? 0)). Qed.
Lemma a_deliv_eq data h : a_deliv ascii data h = {| d_pdu := data; d_tid := 0; d_pid := 0; d_uid := a_uid h |}.
Proof. reflexivity. Qed.
Lemma a_consts : a_start ascii = [COLON] /\ a_end ascii = [CR; LF] /\ a_hdr_init ascii = ahdr0.
Proof. repeat split; reflexivity. Qed.

(* the try-block of checkFrame ([a_try ascii] with start = 0), evaluated *)
Definition try_clean (buf : bytes) (h : ahdr) (e : Z) : ahdr * res bytes :=
  match int_hex2 (pyslice buf 1 3) with
  | Raise x => (h, Raise x)
  | Ok uid =>
      let h1 := {| a_lrc := a_lrc h; a_len := a_len h; a_uid := uid |} in
      match a2b_hex (pyslice buf (e - 2) e) with
      | Raise x => (h1, Raise x)
      | Ok [] => (h1, Raise ValueError)
      | Ok lrc => ({| a_lrc := Some (be_value lrc); a_len := a_len h; a_uid := uid |},
                   a2b_hex (pyslice buf 1 (e - 2)))
      end
  end.

Lemma a_try_eq buf h e : a_try ascii buf h 0 e = try_clean buf h e.
Proof. reflexivity. Qed.

(* [a_check lrc ascii] evaluated ([a_check_eq]): the -1 of bytes.find is [None], the LRC test is the
   specification LRC; every later lemma about checkFrame is about this function *)
Definition check_clean (st : astate) : astate * bool :=
  match find_sub [COLON] (a_buf st) with
  | None => (st, false)
  | Some s =>
      let buf := skipn s (a_buf st) in
      match find_sub [CR; LF] buf with
      | None => ({| a_buf := buf; a_hdr := a_hdr st |}, false)
      | Some e =>
          let h0 := {| a_lrc := a_lrc (a_hdr st); a_len := Z.of_nat e; a_uid := a_uid (a_hdr st) |} in
          match try_clean buf h0 (Z.of_nat e) with
          | (h, Raise _) => ({| a_buf := buf; a_hdr := h |}, false)
          | (h, Ok data) =>
              ({| a_buf := buf; a_hdr := h |},
               spec_lrc data =? match a_lrc h with Some v => v | None => -1 end)
          end
      end
  end.

Lemma a_check_eq st : a_check lrc ascii st = check_clean st.
Proof.
  unfold a_check, check_clean, find_z.
  destruct a_consts as (-> & -> & _).
  destruct (find_sub [COLON] (a_buf st)) as [s|]; [|reflexivity].
  change (beval _ (a_nostart ascii)) with (z2b (b2z (Z.of_nat s =? -1))).
  change (beval _ (a_skip ascii)) with (z2b (b2z (Z.of_nat s >? 0))).
  rewrite !z2b_b2z. replace (Z.of_nat s =? -1) with false by lia.
  (* trimming in front of ':' happens only for start > 0, and is skipn either way *)
  assert (E : (if Z.of_nat s >? 0 then pyfrom (a_buf st) (Z.of_nat s) else a_buf st) = skipn s (a_buf st)
              /\ (if Z.of_nat s >? 0 then 0 else Z.of_nat s) = 0).
  { destruct s; [now split|]. replace (_ >? 0) with true by lia. now rewrite pyfrom_nonneg, Nat2Z.id by lia. }
  destruct E as [-> ->].
  destruct (find_sub [CR; LF] (skipn s (a_buf st))) as [e|]; [|reflexivity].
  change (beval _ (a_hasend ascii)) with (z2b (b2z (negb (Z.of_nat e =? -1)))).
  rewrite z2b_b2z. replace (Z.of_nat e =? -1) with false by lia. cbn [negb].
  rewrite a_try_eq. destruct (try_clean _ _ _) as [h [data|x]]; [|reflexivity].
  now rewrite ascii_check_uses_lrc, py_check_lrc_spec.
Qed.

(* what [spec_hexdig] produces: digits and upper-case A-F *)
Definition hexchar (c : N) : Prop := (48 <= c <= 57)%N \/ (65 <= c <= 70)%N.

Lemma hexchar_not_cr c : hexchar c -> c <> CR.
Proof. unfold hexchar, CR. lia. Qed.
Lemma hexchar_not_colon c : hexchar c -> c <> COLON.
Proof. unfold hexchar, COLON. lia. Qed.

Lemma nibble_cases v : 0 <= v < 16 ->
  v = 0 \/ v = 1 \/ v = 2 \/ v = 3 \/ v = 4 \/ v = 5 \/ v = 6 \/ v = 7 \/ v = 8 \/ v = 9 \/
  v = 10 \/ v = 11 \/ v = 12 \/ v = 13 \/ v = 14 \/ v = 15.
Proof. lia. Qed.

Lemma hexval_spec_hexdig v : 0 <= v < 16 -> hexval (spec_hexdig v) = Some v.
Proof. intros H. apply nibble_cases in H. repeat (destruct H as [->|H]; [reflexivity|]). now subst. Qed.

Lemma spec_hexdig_class v : 0 <= v < 16 -> hexchar (spec_hexdig v).
Proof. intros H. unfold hexchar, spec_hexdig. destruct (v <? 10) eqn:E; lia. Qed.

Lemma hexval_range c x : hexval c = Some x -> 0 <= x < 16.
Proof.
  unfold hexval.
  destruct ((48 <=? c)%N && _) eqn:E1; [|destruct ((65 <=? c)%N && _) eqn:E2; [|destruct ((97 <=? c)%N && _) eqn:E3;
    [|discriminate 1]]]; intros H; injection H as <-; lia.
Qed.

Lemma spec_hex_byte_chars b : (b < 256)%N -> Forall hexchar (spec_hex_byte b).
Proof. intros Hb. constructor; [|constructor; [|constructor]]; apply spec_hexdig_class; lia. Qed.

Lemma int_hex2_spec b : (b < 256)%N -> int_hex2 (spec_hex_byte b) = Ok (Z.of_N b).
Proof. intros Hb. unfold int_hex2, spec_hex_byte. rewrite !hexval_spec_hexdig by lia. f_equal. lia. Qed.

Definition hexU (bs : bytes) : bytes := flat_map spec_hex_byte bs.

Lemma hexU_length bs : length (hexU bs) = (2 * length bs)%nat.
Proof. induction bs as [|b t IH]; [reflexivity|]. change (hexU (b :: t)) with (spec_hex_byte b ++ hexU t). cbn [spec_hex_byte app length]. lia. Qed.

Lemma hexU_chars bs : wfb bs = true -> Forall hexchar (hexU bs).
Proof.
  induction bs as [|b t IH]; [constructor|]. rewrite wfb_cons. intros [Hb Ht].
  apply Forall_app. auto using spec_hex_byte_chars.
Qed.

Lemma a2b_hex_spec bs : wfb bs = true -> a2b_hex (hexU bs) = Ok bs.
Proof.
  induction bs as [|b t IH]; [reflexivity|]. rewrite wfb_cons. intros [Hb Ht].
  cbn [hexU flat_map spec_hex_byte app a2b_hex]. rewrite !hexval_spec_hexdig by lia. fold (hexU t).
  rewrite (IH Ht). cbn [bind]. f_equal. f_equal. lia.
Qed.

Lemma a2b_hex_cons2 a b t r : a2b_hex (a :: b :: t) = Ok r ->
  exists u r', r = u :: r' /\ a2b_hex t = Ok r' /\ int_hex2 [a; b] = Ok (Z.of_N u).
Proof.
  cbn [a2b_hex int_hex2]. destruct (hexval a) as [x|] eqn:Ea; [|discriminate].
  destruct (hexval b) as [y|] eqn:Eb; [|discriminate]. destruct (a2b_hex t) as [r'|]; [|discriminate].
  cbn [bind]. intros E. apply hexval_range in Ea, Eb. exists (Z.to_N (16 * x + y)), r'.
  repeat split; [congruence|]. f_equal. lia.
Qed.

(* by induction on a bound of the length of A: a2b_hex consumes two characters at a time *)
Lemma a2b_hex_colon A B data : a2b_hex (A ++ COLON :: B) <> Ok data.
Proof.
  revert data. assert (G : forall n A, (length A <= n)%nat -> forall data, a2b_hex (A ++ COLON :: B) <> Ok data);
    [|exact (G (length A) A (le_n _))]. clear A.
  induction n as [|n IH]; intros [|a [|b A]] HL data; try (cbn [length] in HL; lia); cbn [app a2b_hex].
  1,2: destruct B; discriminate.
  - destruct (hexval a); discriminate.
  - destruct (hexval a); [|discriminate]. destruct (hexval b); [|discriminate].
    destruct (a2b_hex (A ++ COLON :: B)) as [r|] eqn:E; [|discriminate].
    now apply IH in E; [|cbn [length] in HL; lia].
Qed.

Lemma find_colon_head x : find_sub [COLON] (COLON :: x) = Some 0%nat.
Proof. reflexivity. Qed.

Lemma find_crlf_skip cs rest :
  Forall (fun c => c <> CR) cs -> find_sub [CR; LF] (cs ++ CR :: LF :: rest) = Some (length cs).
Proof.
  induction 1 as [|c cs Hc _ IH]; [reflexivity|].
  cbn [app find_sub prefix_eqb length]. apply not_eq_sym, N.eqb_neq in Hc as ->. cbn [andb]. now rewrite IH.
Qed.

Lemma find_crlf_none cs k :
  Forall (fun c => c <> CR) cs -> (k < length cs + 2)%nat -> find_sub [CR; LF] (firstn k (cs ++ [CR; LF])) = None.
Proof.
  intros HF. revert k. induction HF as [|c cs Hc _ IH]; intros k Hk.
  - destruct k as [|[|k]]; [reflexivity|reflexivity|cbn in Hk; lia].
  - destruct k as [|k]; [reflexivity|]. cbn [app firstn find_sub prefix_eqb].
    apply not_eq_sym, N.eqb_neq in Hc as ->. cbn [andb]. now rewrite IH by (cbn in Hk; lia).
Qed.

Lemma try_struct D c1 c2 rest h :
  try_clean (COLON :: (D ++ [c1; c2]) ++ CR :: LF :: rest) h (Z.of_nat (S (length (D ++ [c1; c2])))) =
  match int_hex2 (firstn 2 ((D ++ [c1; c2]) ++ CR :: LF :: rest)) with
  | Raise x => (h, Raise x)
  | Ok uid =>
      match a2b_hex [c1; c2] with
      | Raise x => ({| a_lrc := a_lrc h; a_len := a_len h; a_uid := uid |}, Raise x)
      | Ok [] => ({| a_lrc := a_lrc h; a_len := a_len h; a_uid := uid |}, Raise ValueError)
      | Ok lrc => ({| a_lrc := Some (be_value lrc); a_len := a_len h; a_uid := uid |}, a2b_hex D)
      end
  end.
Proof.
  unfold try_clean. rewrite app_length. cbn [length]. set (e := Z.of_nat (S (length D + 2))).
  rewrite !pyslice_nonneg by lia.
  replace (Z.to_nat e - Z.to_nat (e - 2))%nat with 2%nat by lia.
  replace (Z.to_nat (e - 2) - Z.to_nat 1)%nat with (length D) by lia.
  replace (Z.to_nat (e - 2)) with (S (length D)) by lia.
  change (Z.to_nat 3 - Z.to_nat 1)%nat with 2%nat. change (Z.to_nat 1) with 1%nat.
  cbn [skipn]. rewrite <- !app_assoc.
  now rewrite skipn_app_exact, (firstn_app_exact D _ (length D)) by reflexivity.
Qed.

(* a well-formed frame: ':' fH CR LF with fH = hex of unit, PDU and LRC *)
Definition fbody (f : frame) : bytes := Z.to_N (f_uid f) :: f_pdu f.
Definition fck (f : frame) : N := Z.to_N (spec_lrc (fbody f)).
Definition fH (f : frame) : bytes := hexU (fbody f) ++ spec_hex_byte (fck f).

Lemma adu_ascii_shape f : spec_adu KAscii f = COLON :: fH f ++ [CR; LF].
Proof.
  cbn [spec_adu]. unfold spec_adu_ascii, fH. fold (fbody f). fold (fck f).
  rewrite flat_map_app. cbn [flat_map]. now rewrite app_nil_r.
Qed.

Lemma adu_ascii_app f rest : spec_adu KAscii f ++ rest = (COLON :: fH f) ++ CR :: LF :: rest.
Proof. rewrite adu_ascii_shape. cbn [app]. now rewrite <- app_assoc. Qed.

Lemma fbody_wfb f : ascii_wf f -> wfb (fbody f) = true.
Proof. intros (Hu & Hw & _). apply wfb_cons. split; [lia|exact Hw]. Qed.

Lemma fck_lt f : (fck f < 256)%N.
Proof. unfold fck. pose proof (spec_lrc_range (fbody f)). lia. Qed.

Lemma fH_length f : length (fH f) = (2 * length (f_pdu f) + 4)%nat.
Proof. unfold fH. rewrite app_length, hexU_length. cbn [fbody spec_hex_byte length]. lia. Qed.

Lemma fH_not_cr f : ascii_wf f -> Forall (fun c => c <> CR) (COLON :: fH f).
Proof.
  intros Hwf. constructor; [discriminate|]. apply (Forall_impl _ hexchar_not_cr), Forall_app.
  split; [apply hexU_chars, fbody_wfb, Hwf|apply spec_hex_byte_chars, fck_lt].
Qed.

Lemma adu_ascii_length f : length (spec_adu KAscii f) = (2 * length (f_pdu f) + 7)%nat.
Proof. rewrite adu_ascii_shape. cbn [length]. rewrite app_length, fH_length. cbn [length]. lia. Qed.

Lemma ascii_adu_ne f : spec_adu KAscii f <> [].
Proof. now rewrite adu_ascii_shape. Qed.

(* the header checkFrame leaves for f *)
Definition afhdr (f : frame) : ahdr :=
  {| a_lrc := Some (spec_lrc (fbody f)); a_len := Z.of_nat (S (length (fH f))); a_uid := f_uid f |}.

Lemma check_frame f rest h :
  ascii_wf f ->
  check_clean {| a_buf := spec_adu KAscii f ++ rest; a_hdr := h |} =
  ({| a_buf := spec_adu KAscii f ++ rest; a_hdr := afhdr f |}, true).
Proof.
  intros Hwf. pose proof Hwf as (Hu & Hw & Hp). pose proof (fck_lt f) as Hck.
  unfold check_clean. cbn [a_buf a_hdr]. rewrite adu_ascii_app. cbn [app]. rewrite find_colon_head. cbn [skipn].
  change (COLON :: fH f ++ ?t) with ((COLON :: fH f) ++ t) at 1.
  rewrite find_crlf_skip by apply fH_not_cr, Hwf. cbn [length app].
  (* by conversion: fH f is hexU (fbody f) followed by the two hex digits of fck f, and those two are hexU [fck f] *)
  pose proof (try_struct (hexU (fbody f)) (spec_hexdig (Z.of_N (fck f) / 16)) (spec_hexdig (Z.of_N (fck f) mod 16)) rest) as E.
  change (hexU (fbody f) ++ [_; _]) with (fH f) in E. rewrite E. clear E.
  replace (firstn 2 _) with (spec_hex_byte (Z.to_N (f_uid f))) by reflexivity.
  rewrite int_hex2_spec, Z2N.id by lia.
  change (a2b_hex [_; _]) with (a2b_hex (hexU [fck f])).
  rewrite !a2b_hex_spec by (try apply fbody_wfb, Hwf; now apply wfb_cons).
  replace (be_value [fck f]) with (spec_lrc (fbody f)).
  - cbn [a_lrc]. now rewrite Z.eqb_refl.
  - unfold fck. pose proof (spec_lrc_range (fbody f)). cbn [be_value length]. change (256 ^ Z.of_nat 0) with 1. lia.
Qed.

Lemma a_head_check f rest h : ascii_wf f ->
  let st := {| a_buf := spec_adu KAscii f ++ rest; a_hdr := h |} in
  a_isready ascii st = true /\ a_check lrc ascii st = ({| a_buf := a_buf st; a_hdr := afhdr f |}, true).
Proof.
  intros Hwf st. split; [|rewrite a_check_eq; now apply check_frame].
  rewrite a_ready_eq. cbn [st a_buf]. rewrite app_length, adu_ascii_length. lia.
Qed.

Lemma a_head_advance f rest :
  a_advance ascii {| a_buf := spec_adu KAscii f ++ rest; a_hdr := afhdr f |} = {| a_buf := rest; a_hdr := ahdr0 |}.
Proof.
  rewrite a_advance_eq. cbn [a_buf a_hdr afhdr a_len]. rewrite pyfrom_nonneg by lia. f_equal.
  apply skipn_app_exact. rewrite adu_ascii_length, fH_length. lia.
Qed.

Lemma a_head_getframe f rest : wfb (f_pdu f) = true ->
  a_getframe ascii {| a_buf := spec_adu KAscii f ++ rest; a_hdr := afhdr f |} = Ok (f_pdu f).
Proof.
  intros Hw. rewrite a_getframe_eq. cbn [a_buf a_hdr afhdr a_len]. pose proof (fH_length f) as HH.
  replace (_ >? 0) with true by lia. rewrite pyslice_nonneg by lia.
  replace (_ - Z.to_nat 3)%nat with (length (hexU (f_pdu f))) by (rewrite hexU_length; lia).
  rewrite adu_ascii_shape. unfold fH, fbody. change (Z.to_nat 3) with 3%nat. cbn [hexU flat_map spec_hex_byte app skipn].
  fold (hexU (f_pdu f)). rewrite <- !app_assoc, firstn_app_exact by reflexivity. now apply a2b_hex_spec.
Qed.

Section ALoop.
Variable dec : bytes -> dres.
Variable c : cfg.
(* the loop as a_recv runs it: generated code, this decoder, unit list and single flag of c *)
Notation aloop n := (a_loop base lrc ascii dec n (c_units c) (single_of (a_single_default ascii) c)).

Lemma a_validate u :
  validate_unit base (c_units c) (single_of (a_single_default ascii) c) (Some u) = Ok (spec_accepts KAscii c u).
Proof. apply validate_spec. Qed.

Lemma a_loop_head n f rest h : ascii_wf f ->
  aloop (S n) {| a_buf := spec_adu KAscii f ++ rest; a_hdr := h |} =
  let st1 := {| a_buf := spec_adu KAscii f ++ rest; a_hdr := afhdr f |} in
  let next := aloop n {| a_buf := rest; a_hdr := ahdr0 |} in
  if spec_accepts KAscii c (f_uid f) then
    match dec (f_pdu f) with
    | DMsg _ => cons_da (spec_delivery KAscii f) next
    | DNone => (st1, [], Exc ModbusIOExc)
    | DRaise e => (st1, [], Exc e)
    end
  else next.
Proof.
  intros Hwf. cbn [a_loop]. destruct (a_head_check f rest h Hwf) as [-> ->].
  cbn [a_buf a_hdr afhdr a_uid]. rewrite a_validate, a_head_advance. destruct (spec_accepts _ _ _); [|reflexivity].
  rewrite a_head_getframe by apply Hwf. now destruct (dec (f_pdu f)).
Qed.

Lemma a_loop_frame n f rest h :
  valid_frame KAscii dec c f ->
  aloop (S n) {| a_buf := spec_adu KAscii f ++ rest; a_hdr := h |} =
  cons_da (spec_delivery KAscii f) (aloop n {| a_buf := rest; a_hdr := ahdr0 |}).
Proof. intros (Hwf & Hmsg & Hacc). rewrite a_loop_head, Hacc by exact Hwf. now destruct (dec (f_pdu f)). Qed.

Lemma a_loop_foreign n f rest h :
  ascii_wf f -> spec_accepts KAscii c (f_uid f) = false ->
  aloop (S n) {| a_buf := spec_adu KAscii f ++ rest; a_hdr := h |} = aloop n {| a_buf := rest; a_hdr := ahdr0 |}.
Proof. intros Hwf Hacc. now rewrite a_loop_head, Hacc. Qed.

(* only with the cleared header: a header length other than 0 makes the loop drop the ':' *)
Lemma a_loop_partial n f p q :
  ascii_wf f -> spec_adu KAscii f = p ++ q -> q <> [] ->
  aloop (S n) {| a_buf := p; a_hdr := ahdr0 |} = ({| a_buf := p; a_hdr := ahdr0 |}, [], Done).
Proof.
  intros Hwf Hsplit Hq. cbn [a_loop]. rewrite a_ready_eq. cbn [a_buf].
  destruct (Z.of_nat (length p) >? 1) eqn:Hr; [|reflexivity].
  rewrite a_check_eq. unfold check_clean. cbn [a_buf a_hdr].
  rewrite adu_ascii_shape in Hsplit. destruct p as [|c0 p]; [discriminate Hr|].
  pose proof (f_equal (@tl N) Hsplit) as Hrest. cbn [tl app] in Hrest.
  replace c0 with COLON by (cbn [app] in Hsplit; congruence). rewrite find_colon_head. cbn [skipn].
  (* no CR LF in a proper prefix of ':' fH CR LF *)
  replace (COLON :: p) with (firstn (S (length p)) ((COLON :: fH f) ++ [CR; LF]))
    by (cbn [app firstn]; now rewrite Hrest, firstn_app_exact).
  rewrite find_crlf_none; [reflexivity|apply fH_not_cr, Hwf|].
  apply (f_equal (@length N)) in Hrest. rewrite !app_length in Hrest. cbn [length] in *.
  destruct q; [now elim Hq|cbn [length] in Hrest; lia].
Qed.

Lemma a_loop_undecodable n f rest h :
  ascii_wf f -> spec_accepts KAscii c (f_uid f) = true -> is_msg (dec (f_pdu f)) = false ->
  exists e, aloop (S n) {| a_buf := spec_adu KAscii f ++ rest; a_hdr := h |} =
            ({| a_buf := spec_adu KAscii f ++ rest; a_hdr := afhdr f |}, [], Exc e).
Proof.
  intros Hwf Hacc Hdec. rewrite a_loop_head, Hacc by exact Hwf. destruct (dec (f_pdu f)); [discriminate|eauto|eauto].
Qed.

Theorem ascii_undecodable_stuck f chunks :
  ascii_wf f -> spec_accepts KAscii c (f_uid f) = true -> is_msg (dec (f_pdu f)) = false ->
  snd (fst (feed (a_recv base lrc ascii dec c) (a_init ascii) (spec_adu KAscii f :: chunks))) = [].
Proof.
  intros Hwf Hacc Hdec.
  assert (Hcall : forall st ch t, a_buf st ++ ch = spec_adu KAscii f ++ t ->
            exists h' e, a_recv base lrc ascii dec c st ch = ({| a_buf := spec_adu KAscii f ++ t; a_hdr := h' |}, [], Exc e)).
  { intros st ch t E. unfold a_recv. cbn [a_buf]. rewrite E.
    destruct (a_loop_undecodable (length (spec_adu KAscii f ++ t)) f t (a_hdr st) Hwf Hacc Hdec) as (e & ->). eauto. }
  cbn [feed]. destruct (Hcall (a_init ascii) (spec_adu KAscii f) [] (eq_sym (app_nil_r _))) as (h' & e & ->).
  (* from then on the buffer always starts with the frame *)
  set (Inv := fun s => exists t, a_buf s = spec_adu KAscii f ++ t).
  assert (Hstep : forall s ch, Inv s -> exists s' o, a_recv base lrc ascii dec c s ch = (s', [], o) /\ Inv s').
  { intros s ch [t Ht]. destruct (Hcall s ch (t ++ ch)) as (h2 & e2 & ->); [now rewrite Ht, app_assoc|].
    eexists _, _. split; [reflexivity|now exists (t ++ ch)]. }
  pose proof (feed_silent _ Inv Hstep chunks {| a_buf := spec_adu KAscii f ++ []; a_hdr := h' |} (ex_intro _ [] eq_refl)) as F.
  now destruct (feed _ _ _) as [[s2 d2] ok].
Qed.

Lemma ascii_framer_ok :
  framer_ok KAscii dec c Build_astate a_buf a_hdr ahdr0 (fun h => h = ahdr0) (fun n => aloop n)
    (a_recv base lrc ascii dec c).
Proof.
  split; try reflexivity.
  - exact ascii_adu_ne.
  - intros n f rest h. apply a_loop_frame.
  - intros n f rest h. apply a_loop_foreign.
  - intros n f p q h Hwf E Hq ->. exists ahdr0. split; [now apply (a_loop_partial n f p q)|reflexivity].
Qed.

End ALoop.

Lemma upper_hexdig v : 0 <= v < 16 -> upper_b (hexdig v) = spec_hexdig v.
Proof. intros H. apply nibble_cases in H. repeat (destruct H as [->|H]; [reflexivity|]). now subst. Qed.

Lemma upper_fmt02x v : 0 <= v < 256 -> upper (fmt02x v) = spec_hex_byte (Z.to_N v).
Proof.
  intros H. unfold fmt02x, spec_hex_byte. cbn [upper map]. now rewrite !upper_hexdig, Z2N.id by lia.
Qed.

Lemma upper_app a b : upper (a ++ b) = upper a ++ upper b.
Proof. apply map_app. Qed.

Lemma upper_b2a bs : wfb bs = true -> upper (b2a_hex bs) = hexU bs.
Proof.
  induction bs as [|b t IH]; [reflexivity|]. rewrite wfb_cons. intros [Hb Ht].
  change (b2a_hex (b :: t)) with (fmt02x (Z.of_N b) ++ b2a_hex t).
  now rewrite upper_app, (IH Ht), upper_fmt02x, N2Z.id by lia.
Qed.

Lemma a_build_eq uid fc data :
  a_build lrc ascii uid fc data =
  (do buffer <- pack true [FB; FB] [uid; fc];
   Ok (upper ([COLON] ++ flat_map fmt02x [uid; fc] ++ b2a_hex data ++ fmt02x (py_lrc lrc (concat [data; buffer])) ++ [CR; LF]))).
Proof. reflexivity. Qed.

Theorem ascii_build_spec uid fc data :
  0 <= uid < 256 -> 0 <= fc < 256 -> wfb data = true ->
  a_build lrc ascii uid fc data = Ok (spec_adu_ascii uid (Z.to_N fc :: data)).
Proof.
  intros Hu Hf Hw. rewrite a_build_eq. cbn [pack]. rewrite !pack1_B by assumption. cbn [bind app flat_map concat].
  rewrite py_lrc_spec, app_nil_r. pose proof (spec_lrc_range (data ++ [Z.to_N uid; Z.to_N fc])) as Hr.
  change (upper (COLON :: ?x)) with (COLON :: upper x). rewrite <- app_assoc, !upper_app.
  rewrite !upper_fmt02x, upper_b2a by assumption.
  rewrite (spec_lrc_perm data). unfold spec_adu_ascii. rewrite (flat_map_app _ (_ :: _ :: data)). fold (hexU data).
  cbn [flat_map app map upper_b]. now rewrite <- !app_assoc.
Qed.

Definition ascii_span (buf : bytes) (uid : Z) (lrcv : Z) (data : bytes) (D : bytes) (c1 c2 : N) (rest : bytes) : Prop :=
  buf = COLON :: (D ++ [c1; c2]) ++ CR :: LF :: rest /\
  a2b_hex D = Ok data /\ (exists ck, a2b_hex [c1; c2] = Ok [ck] /\ Z.of_N ck = lrcv /\ lrcv = spec_lrc data) /\
  int_hex2 (firstn 2 ((D ++ [c1; c2]) ++ CR :: LF :: rest)) = Ok uid.

Theorem ascii_check_gate st st1 :
  check_clean st = (st1, true) ->
  exists pre D c1 c2 rest data,
    a_buf st = pre ++ a_buf st1 /\
    ascii_span (a_buf st1) (a_uid (a_hdr st1)) (match a_lrc (a_hdr st1) with Some v => v | None => -1 end) data D c1 c2 rest /\
    a_len (a_hdr st1) = Z.of_nat (S (length D + 2)).
Proof.
  unfold check_clean. intros H.
  destruct (find_sub [COLON] (a_buf st)) as [s|] eqn:Es; [|discriminate].
  destruct (find_sub_split _ _ _ Es) as (pre & t & Eb & <-). rewrite Eb, skipn_app_exact in H by reflexivity.
  cbn [app] in H. destruct (find_sub [CR; LF] (COLON :: t)) as [e|] eqn:Ee; [|discriminate].
  destruct (find_sub_split _ _ _ Ee) as ([|c0 Hh] & rest & Et & <-); [discriminate Et|].
  cbn [app] in Et. assert (c0 = COLON /\ t = Hh ++ CR :: LF :: rest) as [-> ->] by (split; congruence). clear Et.
  cbn [length] in H. destruct (Nat.lt_ge_cases (length Hh) 2) as [Hshort|Hlong].
  - (* fewer than two characters between ':' and CR LF: with none, CR LF is read as the unit and fails;
       with one, the LRC slice is ':' and that character, and ':' is not hex *)
    exfalso. unfold try_clean in H. destruct Hh as [|h1 [|h2 Hh']]; [| |cbn [length] in Hshort; lia].
    + vm_compute (int_hex2 _) in H. discriminate.
    + destruct (int_hex2 _); [|discriminate]. vm_compute (a2b_hex _) in H. discriminate.
  - destruct (split_last2 Hh Hlong) as (D & c1 & c2 & ->). rewrite (try_struct D c1 c2 rest) in H.
    destruct (int_hex2 _) as [uid|] eqn:Eu; [|discriminate].
    destruct (a2b_hex [c1; c2]) as [l|] eqn:El; [|discriminate].
    destruct (a2b_hex_cons2 _ _ _ _ El) as (ck & l' & -> & El' & _). injection El' as <-.
    destruct (a2b_hex D) as [data|] eqn:Ed; [|discriminate].
    injection H as <- Hchk. apply Z.eqb_eq in Hchk. cbn [a_lrc a_hdr be_value length] in Hchk.
    exists pre, D, c1, c2, rest, data. cbn [a_buf a_hdr a_uid a_lrc a_len].
    repeat split; try assumption.
    + exists ck. repeat split; [exact El|lia|lia].
    + rewrite app_length. cbn [length]. lia.
Qed.

Lemma check_clean_at t h e : find_sub [CR; LF] (COLON :: t) = Some e ->
  exists h1 ok, check_clean {| a_buf := COLON :: t; a_hdr := h |} = ({| a_buf := COLON :: t; a_hdr := h1 |}, ok) /\
    a_len h1 = Z.of_nat e /\
    (ok = true -> exists data, a2b_hex (pyslice (COLON :: t) 1 (Z.of_nat e - 2)) = Ok data).
Proof.
  intros Ee. unfold check_clean, try_clean. cbn [a_buf a_hdr]. rewrite find_colon_head. cbn [skipn]. rewrite Ee.
  destruct (int_hex2 _); [|eexists _, _; repeat split; discriminate].
  destruct (a2b_hex (pyslice _ (Z.of_nat e - 2) _)) as [[|b l]|]; [eexists _, _; repeat split; discriminate| |eexists _, _; repeat split; discriminate].
  destruct (a2b_hex _) as [data|]; eexists _, _; repeat split; eauto; discriminate.
Qed.

Lemma check_suffix st : exists pre, a_buf st = pre ++ a_buf (fst (check_clean st)).
Proof.
  unfold check_clean. destruct (find_sub [COLON] (a_buf st)) as [s|]; [|now exists []].
  exists (firstn s (a_buf st)). rewrite <- (firstn_skipn s (a_buf st)) at 1.
  destruct (find_sub [CR; LF] _); [destruct (try_clean _ _ _) as [h [data|x]]|]; reflexivity.
Qed.

Lemma advance_suffix st st1 :
  check_clean st = (st1, true) -> exists x pre2, a_buf st1 = (x :: pre2) ++ a_buf (a_advance ascii st1).
Proof.
  intros Hc.
  destruct (ascii_check_gate st st1 Hc) as (pre & D & c1 & c2 & rest & data & _ & (Hbuf & _) & Hlen).
  rewrite a_advance_eq. cbn [a_buf]. rewrite Hlen, pyfrom_nonneg by lia.
  exists COLON, ((D ++ [c1; c2]) ++ [CR; LF]). rewrite Hbuf. cbn [app].
  change (CR :: LF :: rest) with ([CR; LF] ++ rest). rewrite app_assoc.
  change (COLON :: ?a ++ rest) with ((COLON :: a) ++ rest). rewrite skipn_app_exact; [reflexivity|].
  cbn [length]. rewrite !app_length. cbn [length]. lia.
Qed.

Lemma a_loop_cases dec units single f st st' ds o :
  let loop := a_loop base lrc ascii dec in
  loop (S f) units single st = (st', ds, o) ->
  (ds = [] /\ o <> OutOfFuel /\
     (o = Done -> a_isready ascii st = false \/ exists st1, check_clean st = (st1, false) /\ a_len (a_hdr st1) = 0)) \/
  (exists st1, check_clean st = (st1, true) /\
     (loop f units single (a_advance ascii st1) = (st', ds, o) \/
      exists frame fc ds2, a_getframe ascii st1 = Ok frame /\ dec frame = DMsg fc /\
        ds = a_deliv ascii frame (a_hdr st1) :: ds2 /\ loop f units single (a_advance ascii st1) = (st', ds2, o))) \/
  (exists st1, a_isready ascii st = true /\ check_clean st = (st1, false) /\ a_len (a_hdr st1) <> 0 /\
     loop f units single (a_dropone ascii st1) = (st', ds, o)).
Proof.
  cbn [a_loop]. rewrite a_check_eq. destruct (a_isready ascii st) eqn:Hr.
  2:{ intros [= _ <- <-]. left. repeat split; [discriminate|auto]. }
  destruct (check_clean st) as [st1 [|]] eqn:Hc.
  - destruct (validate_unit _ _ _ _) as [[|]|x].
    + destruct (a_getframe ascii st1) as [frame|x] eqn:Hg; [destruct (dec frame) as [fc| |x] eqn:Hd|].
      * destruct (a_loop _ _ _ _ f _ _ _) as [[s2 d2] o2] eqn:Er. intros [= <- <- <-].
        right; left. exists st1. split; [reflexivity|]. right. exists frame, fc, d2. auto.
      * intros [= _ <- <-]. left. repeat split; discriminate.
      * intros [= _ <- <-]. left. repeat split; discriminate.
      * intros [= _ <- <-]. left. repeat split; discriminate.
    + right; left. eauto.
    + intros [= _ <- <-]. left. repeat split; discriminate.
  - rewrite a_droptest_eq. destruct (a_len (a_hdr st1) =? 0) eqn:E0; cbn [negb].
    + intros [= _ <- <-]. left. repeat split; [discriminate|]. right. exists st1. split; [reflexivity|lia].
    + right; right. exists st1. repeat split; [lia|assumption].
Qed.
Arguments a_loop_cases {dec units single f st st' ds o} _.

Lemma a_loop_fuel dec units single : forall fuel st,
  (length (a_buf st) < fuel)%nat ->
  forall st' ds o, a_loop base lrc ascii dec fuel units single st = (st', ds, o) -> o <> OutOfFuel.
Proof.
  induction fuel as [|fuel IH]; intros st Hlen st' ds o H; [lia|].
  destruct (check_suffix st) as (pre & Hpre). apply (f_equal (@length N)) in Hpre. rewrite app_length in Hpre.
  destruct (a_loop_cases H) as [(_ & Ho & _)|[(st1 & Hc & Hadv)|(st1 & Hr & Hc & _ & E)]];
    [exact Ho| |]; rewrite Hc in Hpre; cbn [fst] in Hpre.
  - destruct (advance_suffix st st1 Hc) as (x & pre2 & Hp2). apply (f_equal (@length N)) in Hp2.
    rewrite app_length in Hp2. cbn [length] in Hp2.
    destruct Hadv as [E|(frame & fc & ds2 & _ & _ & _ & E)]; apply IH in E; assumption || lia.
  - apply IH in E; [exact E|].
    rewrite a_dropone_eq. cbn [a_buf]. rewrite pyfrom_nonneg, skipn_length by lia. rewrite a_ready_eq in Hr. lia.
Qed.

Theorem ascii_recv_no_fuel_out dec c st chunk st' ds o :
  a_recv base lrc ascii dec c st chunk = (st', ds, o) -> o <> OutOfFuel.
Proof. apply a_loop_fuel. cbn [a_buf]. lia. Qed.

Definition a_sync (st : astate) : Prop := a_buf st = [] /\ a_hdr st = ahdr0.

(* witness of C11_ascii_stuck_refuted: the decoder rejects the PDU of [stuck_frame] *)
Definition stuck_dec (pdu : bytes) : dres :=
  match pdu with [3%N; 0%N; 0%N; 0%N; 1%N] => DMsg 3 | _ => DRaise StructError end.
Definition stuck_cfg : cfg := {| c_units := [1]; c_single := Some false |}.
Definition stuck_frame : frame := {| f_tid := 0; f_pid := 0; f_uid := 1; f_pdu := [3%N; 0%N] |}.
Definition stuck_good : frame := {| f_tid := 0; f_pid := 0; f_uid := 1; f_pdu := [3%N; 0%N; 0%N; 0%N; 1%N] |}.
