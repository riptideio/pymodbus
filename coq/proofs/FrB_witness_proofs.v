(* FrB_witness_proofs.v — what the witnesses of Props/C03, C06, C11 (RTU / binary half) are stated with, and
   the scenarios behind the RTU witnesses that run over long buffers, as lemmas about any state and chunks.
   Every witness is also replayed on the real classes (findings/C*_rtubin.json, on every run). *)
From PM.theories Require Import Base Crc FrBCommon FrRtu FrBin FrSpecB.
From PM.Generated Require Import GenFramerB.
From PM.proofs Require Import Base_proofs Crc_proofs FrB_rtu_proofs.
Open Scope list_scope.
Open Scope N_scope.

(* a decoder that accepts every PDU; unit filter off *)
Definition cfg_server : fcfg :=
  {| cf_dec := fun _ => DMsg; cf_rules := server_decoder; cf_units := [1%Z]; cf_single := true |}.
Definition cfg_client : fcfg :=
  {| cf_dec := fun _ => DMsg; cf_rules := client_decoder; cf_units := [1%Z]; cf_single := true |}.

Fixpoint rtu_feed (cfg : fcfg) (st : rstate) (chunks : list bytes) : rstate * list delivered * list fexit :=
  match chunks with
  | [] => (st, [], [])
  | c :: t => let '(st1, ds, x) := rtu_recv cfg st c in
              let '(st2, ds', xs) := rtu_feed cfg st1 t in (st2, ds ++ ds', x :: xs)
  end.

Fixpoint bin_feed (cfg : fcfg) (st : bstate) (chunks : list bytes) : bstate * list delivered * list fexit :=
  match chunks with
  | [] => (st, [], [])
  | c :: t => let '(st1, ds, x) := bin_recv cfg st c in
              let '(st2, ds', xs) := bin_feed cfg st1 t in (st2, ds ++ ds', x :: xs)
  end.

Definition deliveries {S} (r : S * list delivered * list fexit) : list delivered := snd (fst r).
Definition exits {S} (r : S * list delivered * list fexit) : list fexit := snd r.

(* read holding registers 1..2 and write register 5 := 0x1234, unit 1 *)
Definition pdu_a : bytes := [3; 0; 1; 0; 2].
Definition pdu_b : bytes := [6; 0; 5; 18; 52].

(* binary: the unit id / CRC bytes are never escaped: unit 125 ('}') ends the frame early *)
Lemma binary_unit_delim_witness :
  exists packet, bin_build 125 3 [0; 1; 0; 2] = Ok packet /\
    packet <> spec_adu_binary 125 pdu_a /\
    deliveries (bin_feed cfg_server bin_init [packet]) = [].
Proof.
  eexists. split; [vm_compute; reflexivity|].
  split; [intro H; vm_compute in H; discriminate|].
  vm_compute. reflexivity.
Qed.

Local Open Scope Z_scope.

Lemma rtu_feed_repeat cfg st c ds x n : rtu_recv cfg st c = (st, ds, x) ->
  rtu_feed cfg st (repeat c n) = (st, concat (repeat ds n), repeat x n).
Proof. intros H. induction n as [|n IH]; [reflexivity|]. cbn [repeat rtu_feed concat]. rewrite H, IH. reflexivity. Qed.

Lemma fifo_size_announced a b hi lo q :
  frame_size (lookup_rule client_decoder 24) (a :: b :: hi :: lo :: q) = Ok (Z.shiftl (zb hi) 8 + zb lo + 6).
Proof.
  set (r := lookup_rule client_decoder 24). vm_compute in r. subst r.
  cbn [frame_size]. rewrite !py_index_nat by lia. reflexivity.
Qed.

(* The read g announces an extent l, the reads [waiting] stay below it, the read c reaches it and the CRC fails:
   whatever arrived is lost.  [chunks] is a variable with an equation and the side conditions are boolean so that
   a caller can rewrite on a literal list of reads and discharge everything by evaluation. *)
Lemma rtu_feed_swallows cfg st chunks g waiting c rest u fc t h l : chunks = g :: waiting ++ c :: rest ->
  rtu_recv cfg st g = ({| r_buf := u :: fc :: t; r_hdr := h |}, [], FOk) -> hdr_awaits l h ->
  (forall q, frame_size (lookup_rule (cf_rules cfg) (zb fc)) (u :: fc :: t ++ q) = Ok l) ->
  (zlen (u :: fc :: t ++ concat waiting) <? l) = true ->
  let buf := u :: fc :: t ++ concat waiting ++ c in
  (2 <=? l) && (l <=? zlen buf) = true -> wfb buf = true -> crc_ok (firstn (Z.to_nat l) buf) = false ->
  deliveries (rtu_feed cfg st chunks) = deliveries (rtu_feed cfg {| r_buf := []; r_hdr := hdr_empty |} rest).
Proof.
  intros -> G Hh Fs Hlt buf Hb Hw Hc. cbn [rtu_feed]. rewrite G.
  transitivity (deliveries (rtu_feed cfg {| r_buf := u :: fc :: t; r_hdr := h |} (waiting ++ c :: rest)));
    [destruct (rtu_feed cfg _ (waiting ++ c :: rest)) as [[? ?] ?]; reflexivity|].
  clear G. subst buf. revert t h Hh Fs Hlt Hb Hw Hc.
  induction waiting as [|w ws IH]; intros t h Hh Fs Hlt Hb Hw Hc; cbn [concat app rtu_feed] in *.
  - (* the read that completes the extent *)
    destruct (rtu_ready_full cfg u fc (t ++ c) l h Hh (Fs c) ltac:(lia)) as [h1 R].
    destruct (rtu_check_sized cfg u fc (t ++ c) h1 l Hw (Fs c) ltac:(lia)) as [c1 C]. cbv zeta in C.
    replace (l <=? _) with true in C by lia. rewrite Hc in C. unfold rtu_reset in C.
    unfold rtu_recv. cbn [r_buf r_hdr app]. set (k := S (length _)). cbn [rtu_loop].
    rewrite R, C. cbn [r_buf]. unfold rtu_reset. subst k. rewrite rtu_loop_empty.
    destruct (rtu_feed cfg _ rest) as [[? ?] ?]. reflexivity.
  - (* a read that is only buffered *)
    rewrite <- app_assoc in Hb, Hw, Hc. pose proof (zlen_nonneg (concat ws)).
    assert (Hw1 : wfb (u :: fc :: t ++ w) = true).
    { apply (wfb_firstn (length (u :: fc :: t ++ w))) in Hw.
      rewrite (app_assoc t), !app_comm_cons, firstn_app_exact in Hw by reflexivity. exact Hw. }
    destruct (rtu_loop_short cfg u fc (t ++ w) l (S (length (u :: fc :: t ++ w))) h [] Hw1 Hh) as (h' & R & Hh').
    { unfold zlen in *. cbn [length] in *. rewrite !app_length in *. lia. }
    { right. split; [apply Fs|lia]. }
    unfold rtu_recv. cbn [r_buf r_hdr app]. rewrite R.
    rewrite <- (IH (t ++ w) h' Hh'); rewrite <- ?app_assoc; try assumption.
    + destruct (rtu_feed cfg _ (ws ++ c :: rest)) as [[? ?] ?]. reflexivity.
    + intros q. rewrite <- app_assoc. apply Fs.
Qed.
