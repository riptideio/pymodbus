(* FrB_bin_proofs.v — the binary framer model (theories/FrBin.v) with the regenerated constants.
   What checkFrame = True means and what it does on a braced frame; buildPacket against the
   specified frame; termination and the delivery gate by one induction principle for the while
   loop; whole delimiter-free frames, any number per read, by running single iterations forward. *)
From PM.theories Require Import Base Expr Struct FrBCode Crc FrBCommon FrRtu FrBin FrSpecB.
From PM.Generated Require Import GenFramerB.
From PM.proofs Require Import Base_proofs Struct_proofs Crc_proofs FrB_rtu_proofs.
Open Scope list_scope.
Open Scope Z_scope.

(* closed forms of the regenerated expressions: they stop compiling when binary_framer.py
   changes a slice bound, a comparison, a format or a delimiter *)
Lemma bin_ready_len st : bin_ready st = (zlen (b_buf st) >? 1).
Proof. unfold bin_ready, beval. cbn. destruct (zlen (b_buf st) >? 1); reflexivity. Qed.
Lemma bc_crc_lo_closed s e : eval (env_se s e) (bc_crc_lo bin) = e - 2. Proof. reflexivity. Qed.
Lemma bc_crc_hi_closed s e : eval (env_se s e) (bc_crc_hi bin) = e. Proof. reflexivity. Qed.
Lemma bc_data_lo_closed s e : eval (env_se s e) (bc_data_lo bin) = 1. Proof. reflexivity. Qed.
Lemma bc_data_hi_closed s e : eval (env_se s e) (bc_data_hi bin) = e - 2. Proof. reflexivity. Qed.
Lemma bc_uid_closed : bc_uid_lo bin = 1 /\ bc_uid_hi bin = 2. Proof. split; reflexivity. Qed.
Lemma bc_get_start_closed : e1 "self._hsize" (bc_hsize bin) (bc_get_start bin) = 2. Proof. reflexivity. Qed.
Lemma bc_get_end_closed l : e1 "self._header['len']" l (bc_get_end bin) = l - 2. Proof. reflexivity. Qed.
Lemma bc_get_cond_closed e : beval (env_of [("end"%string, e)]) (bc_get_cond bin) = (e >? 0).
Proof. unfold beval. cbn. destruct (e >? 0); reflexivity. Qed.
Lemma bc_adv_closed l : e1 "self._header['len']" l (bc_adv bin) = l + 1. Proof. reflexivity. Qed.
Lemma bin_delims : bin_start = 123%N /\ bin_end = 125%N. Proof. split; reflexivity. Qed.
Lemma bc_fmts : bc_hdr_fmt bin = ">BB"%string /\ bc_crc_fmt bin = ">H"%string. Proof. split; reflexivity. Qed.
Lemma bc_repeat_closed : bc_repeat bin = [125; 123]. Proof. reflexivity. Qed.

Lemma zlen_cons {A} (x : A) l : zlen (x :: l) = zlen l + 1.
Proof. unfold zlen. cbn [length]. lia. Qed.

Lemma zlen_nil {A} : zlen (@nil A) = 0.
Proof. reflexivity. Qed.

#[local] Hint Rewrite @zlen_app @zlen_cons @zlen_nil : zlen.

Lemma find_byte_cases b l :
  (find_byte b l = -1 /\ ~ In b l) \/
  (exists pre post, l = pre ++ [b] ++ post /\ ~ In b pre /\ find_byte b l = zlen pre).
Proof.
  induction l as [|x t IH]; cbn [find_byte]; [left; auto|].
  destruct (N.eqb_spec x b) as [->|NE]; [right; now exists [], t|].
  destruct IH as [[-> Hn]|(pre & post & -> & Hn & ->)].
  - left. split; [reflexivity|]. now intros [E|Hin].
  - right. exists (x :: pre), post. pose proof (zlen_nonneg pre).
    replace (zlen pre <? 0) with false by lia. autorewrite with zlen.
    repeat split. now intros [E|Hin].
Qed.

Lemma find_byte_lt b l : find_byte b l < zlen l.
Proof.
  pose proof (zlen_nonneg l).
  destruct (find_byte_cases b l) as [[-> _]|(pre & post & -> & _ & ->)]; [lia|].
  autorewrite with zlen. pose proof (zlen_nonneg post). lia.
Qed.

Lemma find_byte_notin b l : ~ In b l -> find_byte b l = -1.
Proof.
  intros H. destruct (find_byte_cases b l) as [[E _]|(pre & post & -> & _)]; [exact E|].
  elim H. apply in_elt.
Qed.

Lemma find_byte_hit b pre post : ~ In b pre -> find_byte b (pre ++ [b] ++ post) = zlen pre.
Proof.
  induction pre as [|x t IH]; intros H; cbn [app find_byte] in *.
  - rewrite N.eqb_refl. reflexivity.
  - destruct (N.eqb_spec x b) as [->|_]; [elim H; now left|].
    rewrite IH by (intro; apply H; now right).
    pose proof (zlen_nonneg t). replace (zlen t <? 0) with false by lia. now autorewrite with zlen.
Qed.

Lemma no_delim_notin l : no_delim l = true -> ~ In 123%N l /\ ~ In 125%N l.
Proof.
  unfold no_delim. rewrite forallb_forall. intros H.
  split; intros Hin; apply H in Hin; vm_compute in Hin; discriminate.
Qed.

Lemma escape_no_delim l : no_delim l = true -> escape l = l.
Proof.
  induction l as [|x t IH]; intros H; [reflexivity|]. cbn in H. apply andb_prop in H. destruct H as [Hx Ht].
  cbn [escape]. destruct (is_delim x); [discriminate|]. rewrite IH by exact Ht. reflexivity.
Qed.

Lemma pyslice_len_hi {A} (l : list A) lo hi : 0 <= hi ->
  Z.of_nat (length (pyslice l lo (Some hi))) <= hi.
Proof.
  intros Hh. unfold pyslice, norm_idx. fold (zlen l). replace (hi <? 0) with false by lia.
  rewrite firstn_length. pose proof (zlen_nonneg l).
  destruct lo as [i|]; [destruct (i <? 0) eqn:Ei|]; lia.
Qed.

(* checkFrame: if start > 0: self._buffer = self._buffer[start:] *)
Lemma pyslice_trim {A} (j t : list A) :
  (if zlen j >? 0 then pyslice (j ++ t) (Some (zlen j)) None else j ++ t) = t.
Proof.
  destruct j as [|x j]; [reflexivity|].
  replace (zlen (x :: j) >? 0) with true by (pose proof (zlen_nonneg j); autorewrite with zlen; lia).
  now apply pyslice_suffix.
Qed.

Lemma pyslice_skip {A} (x z : list A) n : 0 <= n ->
  pyslice (x ++ z) (Some n) (Some (zlen x)) = skipn (Z.to_nat n) x.
Proof.
  intros Hn. unfold pyslice, norm_idx. fold (zlen (x ++ z)). rewrite zlen_app.
  pose proof (zlen_nonneg x). pose proof (zlen_nonneg z).
  replace (n <? 0) with false by lia. replace (zlen x <? 0) with false by lia.
  rewrite (Z.min_l (zlen x)) by lia. unfold zlen in *.
  destruct (Z.le_gt_cases n (Z.of_nat (length x))) as [L|L].
  - rewrite Z.min_l, skipn_app by lia. replace (Z.to_nat n - length x)%nat with O by lia.
    apply firstn_app_exact. rewrite skipn_length. lia.
  - rewrite (skipn_all2 x) by lia. replace (Z.to_nat _) with O by lia. reflexivity.
Qed.

Lemma unpack_B x : unpack_s ">B" [x] = Ok [Z.of_N x].
Proof.
  unfold unpack_s. rewrite parse_B. unfold unpack. cbn. unfold unpack1, of_unsigned. cbn.
  apply f_equal. apply (f_equal (fun z => [z])). lia.
Qed.

Lemma unpack_H a b : unpack_s ">H" [a; b] = Ok [Z.of_N a * 256 + Z.of_N b].
Proof.
  unfold unpack_s. rewrite parse_H. unfold unpack. cbn -[Z.mul Z.add]. unfold unpack1, of_unsigned.
  cbn -[Z.mul Z.add]. apply f_equal. apply (f_equal (fun z => [z])). lia.
Qed.

Lemma unpack_len big fs bs l : unpack big fs bs = Ok l -> length bs = fmt_size fs.
Proof.
  intros U. destruct (Nat.eq_dec (length bs) (fmt_size fs)) as [E|NE]; [exact E|].
  now rewrite (unpack_wrong_length _ _ _ NE) in U.
Qed.

Lemma unpack_H_len bs l : unpack_s ">H" bs = Ok l -> length bs = 2%nat.
Proof. unfold unpack_s. rewrite parse_H. apply unpack_len. Qed.

Lemma unpack_B_len bs l : unpack_s ">B" bs = Ok l -> length bs = 1%nat.
Proof. unfold unpack_s. rewrite parse_B. apply unpack_len. Qed.

Lemma unpack_H_field (pre z : bytes) c :
  unpack_s ">H" (pyslice (pre ++ z) (Some (zlen pre - 2)) (Some (zlen pre))) = Ok [c] ->
  exists d c0 c1, pre = d ++ [c0; c1] /\ c = zb c0 * 256 + zb c1.
Proof.
  intros U. pose proof (unpack_H_len _ _ U) as L.
  pose proof (pyslice_len_hi (pre ++ z) (Some (zlen pre - 2)) _ (zlen_nonneg pre)) as L'. rewrite L in L'.
  destruct (split_last2 pre) as (d & c0 & c1 & ->); [unfold zlen in L'; lia|].
  exists d, c0, c1. split; [reflexivity|].
  rewrite <- app_assoc, (pyslice_mid d [c0; c1]), unpack_H in U by (autorewrite with zlen; lia).
  now injection U.
Qed.

Lemma swap_val_bytes c0 c1 k : (c0 < 256)%N -> (c1 < 256)%N -> (k < 65536)%N ->
  (Z.of_N (swap16 k) =? zb c0 * 256 + zb c1) = true <-> k = (c0 + 256 * c1)%N.
Proof.
  intros H0 H1 Hk.
  rewrite <- N.eqb_eq, <- (crc_val_eqb c0 c1 k H0 H1 Hk), Z.shiftl_mul_pow2 by lia. reflexivity.
Qed.

Lemma braced_slices (d : bytes) c0 c1 rest :
  let buf := [123%N] ++ d ++ [c0; c1] ++ [125%N] ++ rest in
  pyslice buf (Some (zlen d + 3 - 2)) (Some (zlen d + 3)) = [c0; c1] /\
  pyslice buf (Some 1) (Some (zlen d + 3 - 2)) = d /\
  pyslice buf (Some 2) (Some (zlen d + 3 - 2)) = tl d /\
  pyslice buf (Some (zlen d + 3 + 1)) None = rest.
Proof.
  cbv zeta. replace (zlen d + 3 - 2) with (zlen ([123%N] ++ d)) by (autorewrite with zlen; lia).
  repeat split.
  - rewrite (app_assoc [123%N]). apply pyslice_mid; autorewrite with zlen; lia.
  - rewrite (app_assoc [123%N]). apply (pyslice_skip ([123%N] ++ d)). lia.
  - rewrite (app_assoc [123%N]). now rewrite pyslice_skip.
  - rewrite !app_assoc. apply pyslice_suffix. autorewrite with zlen. lia.
Qed.

(* control flow only: nothing is assumed of the bytes *)
Lemma bin_check_true_inv st st1 : bin_check st = (st1, Ok true) ->
  exists j m post u e c,
    b_buf st = j ++ (123%N :: m) ++ 125%N :: post /\ ~ In 125%N m /\ e = zlen (123%N :: m) /\
    st1 = {| b_buf := (123%N :: m) ++ 125%N :: post; b_hdr := {| b_uid := u; b_len := e; b_crc := c |} |} /\
    unpack_s ">B" (pyslice (b_buf st1) (Some 1) (Some 2)) = Ok [u] /\
    unpack_s ">H" (pyslice (b_buf st1) (Some (e - 2)) (Some e)) = Ok [c] /\
    py_check_crc (pyslice (b_buf st1) (Some 1) (Some (e - 2))) c = Ok true.
Proof.
  unfold bin_check. change bin_start with 123%N. change bin_end with 125%N.
  destruct (find_byte_cases 123 (b_buf st)) as [[-> _]|(j & t & Eb & _ & ->)]; [discriminate|].
  pose proof (zlen_nonneg j). replace (zlen j =? -1) with false by lia. rewrite Eb, pyslice_trim.
  destruct (find_byte_cases 125 ([123%N] ++ t)) as [[-> _]|([|x m] & post & Et & Hm & ->)];
    [discriminate | discriminate Et | injection Et as <- ->].
  pose proof (zlen_nonneg (123%N :: m)). replace (zlen (123%N :: m) =? -1) with false by lia. cbn [negb].
  destruct (unpack_s ">B" _) as [[|u [|]]|] eqn:UB; try discriminate.
  destruct (unpack_s ">H" _) as [[|c [|]]|] eqn:UH; try discriminate.
  destruct (py_check_crc _ _) as [[|]|] eqn:CK; try discriminate.
  intros [= <-]. exists j, m, post, u, (zlen (123%N :: m)), c.
  repeat split; try assumption. intros Hin. apply Hm. now right.
Qed.

Lemma bin_check_true st st1 : wfb (b_buf st) = true -> bin_check st = (st1, Ok true) ->
  exists j d c0 c1 rest,
    b_buf st = j ++ [123%N] ++ d ++ [c0; c1] ++ [125%N] ++ rest /\ ~ In 125%N (d ++ [c0; c1]) /\
    crc16_bitwise d = (c0 + 256 * c1)%N /\ b_buf st1 = [123%N] ++ d ++ [c0; c1] ++ [125%N] ++ rest /\
    b_len (b_hdr st1) = zlen d + 3 /\
    match d with u :: _ => b_uid (b_hdr st1) = zb u | [] => True end.
Proof.
  intros Hw C.
  destruct (bin_check_true_inv _ _ C) as (j & m & post & u & e & c & Eb & Hnm & -> & -> & UB & UH & CK).
  clear C. cbn [b_buf b_hdr b_len b_uid] in *.
  destruct (unpack_H_field _ _ _ UH) as (d' & c0 & c1 & Em & ->). clear UH. rewrite Em in *.
  rewrite Eb, <- app_assoc, !wfb_app, !andb_true_iff in Hw. destruct Hw as (_ & Hd & Hc & _).
  assert (Hwd : wfb (tl d') = true) by (destruct d'; [reflexivity | now apply andb_prop in Hd]).
  replace (zlen (d' ++ [c0; c1]) - 2) with (zlen d') in CK by (autorewrite with zlen; lia).
  rewrite <- app_assoc, pyslice_skip in CK by lia. change (skipn _ d') with (tl d') in CK.
  rewrite py_check_crc_spec in CK by exact Hwd. injection CK as CK. cbn in Hc. unfold byteb in Hc.
  apply swap_val_bytes in CK; [|lia|lia|apply crc16_lt, Hwd].
  (* when '{' is one of the two bytes, nothing is left to check and the field cannot match *)
  destruct d' as [|b d]; injection Em as <- Em.
  { change (crc16_bitwise _) with 65535%N in CK. lia. }
  subst m. exists j, d, c0, c1, post. rewrite <- app_assoc in Eb.
  repeat split; try assumption.
  - now rewrite <- app_assoc.
  - autorewrite with zlen. lia.
  - destruct d as [|u0 d]; [exact I|].
    change (((123%N :: u0 :: d) ++ ?a) ++ ?b) with ([123%N] ++ [u0] ++ (d ++ a) ++ b) in UB.
    rewrite pyslice_mid, unpack_B in UB by reflexivity. now injection UB.
Qed.

Lemma bin_check_frame j u d c0 c1 rest h : ~ In 123%N j -> ~ In 125%N ((u :: d) ++ [c0; c1]) ->
  wfb (u :: d) = true ->
  bin_check {| b_buf := j ++ [123%N] ++ (u :: d) ++ [c0; c1] ++ [125%N] ++ rest; b_hdr := h |} =
  ({| b_buf := [123%N] ++ (u :: d) ++ [c0; c1] ++ [125%N] ++ rest;
      b_hdr := {| b_uid := zb u; b_len := zlen (u :: d) + 3; b_crc := zb c0 * 256 + zb c1 |} |},
   Ok (Z.of_N (swap16 (crc16_bitwise (u :: d))) =? zb c0 * 256 + zb c1)).
Proof.
  intros Hj Hn Hw. unfold bin_check. cbn [b_buf b_hdr]. change bin_start with 123%N. change bin_end with 125%N.
  rewrite (find_byte_hit 123 j _ Hj), pyslice_trim.
  replace (zlen j =? -1) with false by (pose proof (zlen_nonneg j); lia).
  set (buf := [123%N] ++ (u :: d) ++ [c0; c1] ++ [125%N] ++ rest).
  assert (F : find_byte 125 buf = zlen (u :: d) + 3).
  { unfold buf. rewrite (app_assoc (u :: d)), (app_assoc [123%N]), (find_byte_hit 125) by (intros [[=]|H]; auto).
    autorewrite with zlen. lia. }
  rewrite F. replace (zlen (u :: d) + 3 =? -1) with false by (pose proof (zlen_nonneg (u :: d)); lia). cbn [negb].
  destruct bc_uid_closed as [-> ->].
  rewrite bc_crc_lo_closed, bc_crc_hi_closed, bc_data_lo_closed, bc_data_hi_closed.
  assert (S1 : pyslice buf (Some 1) (Some 2) = [u]) by (apply (pyslice_mid [123%N] [u]); reflexivity).
  destruct (braced_slices (u :: d) c0 c1 rest) as (S2 & S3 & _). fold buf in S2, S3.
  rewrite S1, unpack_B, S2, unpack_H, S3, py_check_crc_spec by exact Hw. reflexivity.
Qed.

Lemma bin_get_frame_checked st d c0 c1 rest :
  b_buf st = [123%N] ++ d ++ [c0; c1] ++ [125%N] ++ rest -> b_len (b_hdr st) = zlen d + 3 ->
  bin_get_frame st = tl d.
Proof.
  intros Eb El. unfold bin_get_frame. rewrite bc_get_start_closed, bc_get_end_closed, bc_get_cond_closed, Eb, El.
  pose proof (zlen_nonneg d). replace (zlen d + 3 - 2 >? 0) with true by lia.
  apply (braced_slices d c0 c1 rest).
Qed.

Lemma bin_advance_checked st d c0 c1 rest :
  b_buf st = [123%N] ++ d ++ [c0; c1] ++ [125%N] ++ rest -> b_len (b_hdr st) = zlen d + 3 ->
  bin_advance st = {| b_buf := rest; b_hdr := bin_hdr0 |}.
Proof.
  intros Eb El. unfold bin_advance. rewrite bc_adv_closed, Eb, El. f_equal. apply (braced_slices d c0 c1 rest).
Qed.

Lemma bin_preflight_no_delim data : no_delim data = true -> bin_preflight data = data.
Proof.
  induction data as [|d t IH]; intros H; [reflexivity|]. cbn in H. apply andb_prop in H. destruct H as [Hd Ht].
  cbn [bin_preflight]. rewrite bc_repeat_closed.
  replace (existsb (Z.eqb (zb d)) [125; 123]) with false.
  - rewrite IH by exact Ht. reflexivity.
  - cbn. unfold is_delim, LBRACE, RBRACE, zb in *. lia.
Qed.

Lemma bin_build_rtu uid fc data :
  bin_build uid fc data = do p <- rtu_build uid fc (bin_preflight data); Ok ([123%N] ++ p ++ [125%N]).
Proof.
  unfold bin_build, rtu_build. destruct bc_fmts as [-> ->]. destruct rc_fmts as [-> ->]. destruct bin_delims as [-> ->].
  destruct (pack_s ">BB" [uid; fc]) as [hd|]; [|reflexivity]. cbn [bind].
  destruct (py_crc _) as [c|]; [|reflexivity]. cbn [bind].
  destruct (pack_s ">H" [c]); reflexivity.
Qed.

Theorem bin_build_spec uid fc data : (uid < 256)%N -> (fc < 256)%N -> wfb data = true ->
  no_delim (with_crc (uid :: fc :: data)) = true ->
  bin_build (Z.of_N uid) (Z.of_N fc) data = Ok (spec_adu_binary uid (fc :: data)).
Proof.
  intros Hu Hf Hw Hn.
  assert (Hnd : no_delim data = true).
  { unfold with_crc, no_delim in *. rewrite forallb_app in Hn. cbn [forallb] in Hn.
    rewrite !andb_true_iff in Hn. tauto. }
  rewrite bin_build_rtu, bin_preflight_no_delim, rtu_build_spec by assumption. cbn [bind].
  unfold spec_adu_binary. now rewrite escape_no_delim by exact Hn.
Qed.

(* read from right to left: what a valid frame looks like to checkFrame *)
Lemma bin_gate_span_spec u pdu c0 c1 : (c0 < 256)%N -> (c1 < 256)%N ->
  crc16_bitwise (u :: pdu) = (c0 + 256 * c1)%N -> no_delim ((u :: pdu) ++ [c0; c1]) = true ->
  [123%N] ++ (u :: pdu) ++ [c0; c1] ++ [125%N] = spec_adu_binary u pdu.
Proof.
  intros H0 H1 Hc Hn. unfold spec_adu_binary, with_crc. rewrite Hc.
  destruct (crc_split c0 c1) as [-> ->]; try assumption. rewrite escape_no_delim by exact Hn.
  rewrite <- !app_assoc. reflexivity.
Qed.

Lemma bin_loop_cases cfg (P : nat -> bstate -> list delivered -> bstate * list delivered * fexit -> Prop) :
  (forall st acc, P O st acc (st, acc, FOutOfFuel)) ->
  (forall k st acc st' x, x <> FOutOfFuel -> P (S k) st acc (st', acc, x)) ->
  (forall k st st1 acc r, bin_check st = (st1, Ok true) -> cf_dec cfg (bin_get_frame st1) = DMsg ->
     P k (bin_advance st1) (acc ++ [(bin_get_frame st1, b_uid (b_hdr st1))]) r -> P (S k) st acc r) ->
  forall fuel st acc, P fuel st acc (bin_loop fuel cfg st acc).
Proof.
  intros H0 Hstop Hstep. induction fuel as [|k IH]; intros st acc; [apply H0|]. cbn [bin_loop].
  destruct (bin_ready st); [|now apply Hstop].
  destruct (bin_check st) as [st1 [[|]|e]] eqn:C; try now apply Hstop.
  destruct (validate_unit cfg _) as [[|]|e]; try now apply Hstop.
  destruct (cf_dec cfg _) eqn:D; try now apply Hstop.
  now apply (Hstep k st st1).
Qed.

Lemma bin_loop_fuel cfg : forall fuel st acc, (length (b_buf st) < fuel)%nat ->
  snd (bin_loop fuel cfg st acc) <> FOutOfFuel.
Proof.
  apply (bin_loop_cases cfg (fun k st _ r => (length (b_buf st) < k)%nat -> snd r <> FOutOfFuel)).
  - intros; lia.
  - intros; assumption.
  - intros k st st1 acc r C _ IH Hf. apply IH.
    destruct (bin_check_true_inv _ _ C) as (j & m & post & u & e & c & Eb & _ & He & -> & _).
    unfold bin_advance. cbn [b_buf b_hdr b_len]. rewrite bc_adv_closed.
    pose proof (pyslice_from_len' ((123%N :: m) ++ 125%N :: post) (e + 1)) as Hp.
    rewrite Eb, app_length in Hf. unfold zlen in *. rewrite app_length in *. cbn [length] in *. lia.
Qed.

Theorem bin_recv_no_fuel_out cfg st chunk : snd (bin_recv cfg st chunk) <> FOutOfFuel.
Proof. unfold bin_recv. apply bin_loop_fuel. cbn [b_buf]. lia. Qed.

Lemma bin_loop_prefix cfg : forall fuel st acc st' ds x,
  bin_loop fuel cfg st acc = (st', ds, x) -> exists t, ds = acc ++ t.
Proof.
  intros fuel st acc st' ds x H. change ds with (snd (fst (st', ds, x))). rewrite <- H. clear. revert fuel st acc.
  apply (bin_loop_cases cfg (fun _ _ acc r => exists t, snd (fst r) = acc ++ t)).
  1, 2: intros; exists []; symmetry; apply app_nil_r.
  intros _ _ st1 acc r _ _ [t ->]. rewrite <- app_assoc. now eexists.
Qed.

(* vb_nodelim: nothing is doubled by the sender and checkFrame finds the right '}' *)
Record valid_bframe (cfg : fcfg) (u : N) (pdu : bytes) : Prop := {
  vb_wfb : wfb (u :: pdu) = true;
  vb_pdu : pdu <> [];
  vb_dec : cf_dec cfg pdu = DMsg;
  vb_unit : validate_unit cfg (Some (zb u)) = Ok true;
  vb_nodelim : no_delim (with_crc (u :: pdu)) = true
}.

Lemma bin_loop_frame cfg k h j u pdu rest acc : valid_bframe cfg u pdu -> ~ In 123%N j ->
  bin_loop (S k) cfg {| b_buf := j ++ spec_adu_binary u pdu ++ rest; b_hdr := h |} acc =
  bin_loop k cfg {| b_buf := rest; b_hdr := bin_hdr0 |} (acc ++ [(pdu, zb u)]).
Proof.
  intros [Hw _ Hd Hu Hn] Hj.
  destruct (spec_adu_rtu_shape u pdu Hw) as (lo & hi & Esp & Hlo & Hhi & Hcrc).
  unfold spec_adu_rtu in Esp. rewrite Esp in Hn.
  rewrite <- (bin_gate_span_spec u pdu lo hi Hlo Hhi Hcrc Hn), <- !app_assoc.
  pose proof (bin_check_frame j u pdu lo hi rest h Hj (proj2 (no_delim_notin _ Hn)) Hw) as C.
  rewrite (proj2 (swap_val_bytes lo hi _ Hlo Hhi (crc16_lt _ Hw)) Hcrc) in C.
  set (st1 := {| b_buf := [123%N] ++ (u :: pdu) ++ [lo; hi] ++ [125%N] ++ rest; b_hdr := _ |}) in C.
  pose proof (bin_get_frame_checked st1 _ lo hi rest eq_refl eq_refl) as G. cbn [tl] in G.
  pose proof (bin_advance_checked st1 _ lo hi rest eq_refl eq_refl) as A.
  assert (R : bin_ready {| b_buf := j ++ [123%N] ++ (u :: pdu) ++ [lo; hi] ++ [125%N] ++ rest; b_hdr := h |} = true).
  { rewrite bin_ready_len. cbn [b_buf]. autorewrite with zlen.
    pose proof (zlen_nonneg j). pose proof (zlen_nonneg pdu). pose proof (zlen_nonneg rest). lia. }
  cbn [bin_loop]. rewrite R, C. cbn [b_hdr b_uid st1]. rewrite Hu, G, Hd, A. reflexivity.
Qed.

Lemma bin_loop_short cfg k q h acc : (length q <= 1)%nat ->
  bin_loop (S k) cfg {| b_buf := q; b_hdr := h |} acc = ({| b_buf := q; b_hdr := h |}, acc, FOk).
Proof.
  intros H. cbn [bin_loop]. rewrite bin_ready_len. cbn [b_buf].
  replace (zlen q >? 1) with false by (unfold zlen; lia). reflexivity.
Qed.

Lemma bin_recv_short cfg st chunk : (length (b_buf st ++ chunk) <= 1)%nat ->
  bin_recv cfg st chunk = ({| b_buf := b_buf st ++ chunk; b_hdr := b_hdr st |}, [], FOk).
Proof. intros H. unfold bin_recv. apply bin_loop_short. exact H. Qed.

Definition bstream (fs : list (N * bytes)) : bytes := flat_map (fun f => spec_adu_binary (fst f) (snd f)) fs.
Definition bmsgs (fs : list (N * bytes)) : list delivered := map (fun f => (snd f, zb (fst f))) fs.

(* so the fuel S |buffer| covers one iteration per frame *)
Lemma bstream_len fs : (length fs <= length (bstream fs))%nat.
Proof.
  unfold bstream. rewrite flat_map_concat_map. now apply stream_length_ge.
Qed.

Lemma bin_loop_drain cfg : forall fs fuel q h acc,
  Forall (fun f => valid_bframe cfg (fst f) (snd f)) fs -> (length q <= 1)%nat -> (length fs < fuel)%nat ->
  exists h', bin_loop fuel cfg {| b_buf := bstream fs ++ q; b_hdr := h |} acc
             = ({| b_buf := q; b_hdr := h' |}, acc ++ bmsgs fs, FOk).
Proof.
  induction fs as [|[u pdu] fs IH]; intros [|k] q h acc Hall Hq Hf; try (cbn [length] in Hf; lia).
  - exists h. cbn [bstream flat_map app bmsgs map]. rewrite app_nil_r. apply bin_loop_short, Hq.
  - inversion_clear Hall as [|? ? V Hfs].
    change (bstream ((u, pdu) :: fs) ++ q) with ([] ++ (spec_adu_binary u pdu ++ bstream fs) ++ q).
    rewrite <- app_assoc, (bin_loop_frame cfg k h [] u pdu _ acc V (fun F => F)).
    destruct (IH k q bin_hdr0 (acc ++ [(pdu, zb u)]) Hfs Hq) as (h' & ->); [cbn [length] in Hf; lia|].
    exists h'. now rewrite <- app_assoc.
Qed.

Lemma bin_recv_whole cfg st chunk j u pdu : valid_bframe cfg u pdu -> ~ In 123%N j ->
  b_buf st ++ chunk = j ++ spec_adu_binary u pdu ->
  bin_recv cfg st chunk = (bin_init, [(pdu, zb u)], FOk).
Proof.
  intros V Hj Hbuf. unfold bin_recv. cbn [b_buf]. rewrite Hbuf, <- (app_nil_r (spec_adu_binary u pdu)).
  rewrite (bin_loop_frame cfg _ (b_hdr st) j u pdu [] [] V Hj).
  (* the split only lets the fuel compute to a successor *)
  destruct j; apply bin_loop_short; cbn; lia.
Qed.

Theorem bin_whole_frame cfg u pdu : valid_bframe cfg u pdu ->
  bin_recv cfg bin_init (spec_adu_binary u pdu) = (bin_init, [(pdu, zb u)], FOk).
Proof. intros V. apply (bin_recv_whole cfg bin_init _ [] u pdu V (fun F => F)). reflexivity. Qed.

Fixpoint bin_feed_dels (cfg : fcfg) (st : bstate) (chunks : list bytes) : list delivered * list fexit :=
  match chunks with
  | [] => ([], [])
  | c :: t => let '(st1, ds, x) := bin_recv cfg st c in
              let '(ds', xs) := bin_feed_dels cfg st1 t in (ds ++ ds', x :: xs)
  end.

(* every read completes any number of whole frames (none, one, several) and leaves at most one byte
   of the next frame buffered *)
Fixpoint bopr (b : bytes) (frames : list (N * bytes)) (chunks : list bytes) : Prop :=
  match chunks with
  | [] => frames = [] /\ b = []
  | c :: cs => exists fs rest q, frames = fs ++ rest /\ b ++ c = bstream fs ++ q /\ (length q <= 1)%nat /\ bopr q rest cs
  end.

Theorem bin_chunked cfg : forall chunks b frames st,
  b_buf st = b ->
  Forall (fun f => valid_bframe cfg (fst f) (snd f)) frames ->
  bopr b frames chunks ->
  bin_feed_dels cfg st chunks = (bmsgs frames, map (fun _ => FOk) chunks).
Proof.
  induction chunks as [|c cs IH]; intros b frames st Hb Hall Ho.
  - cbn in Ho. destruct Ho as [-> _]. reflexivity.
  - cbn [bopr] in Ho. destruct Ho as (fs & rest & q & -> & Eb & Hq & Ho).
    apply Forall_app in Hall. destruct Hall as [H1 H2].
    cbn [bin_feed_dels]. unfold bin_recv. rewrite Hb, Eb.
    destruct (bin_loop_drain cfg fs (S (length (bstream fs ++ q))) q (b_hdr st) [] H1 Hq) as (h' & R).
    { pose proof (bstream_len fs). rewrite app_length. lia. }
    cbn [b_buf]. rewrite R. cbn [app].
    rewrite (IH q rest {| b_buf := q; b_hdr := h' |} eq_refl H2 Ho).
    unfold bmsgs. rewrite map_app. reflexivity.
Qed.

Lemma bopr_reads : forall reads, bopr [] (concat reads) (map bstream reads).
Proof.
  induction reads as [|fs t IH]; [now split|]. exists fs, (concat t), [].
  rewrite app_nil_r. repeat split; [cbn; lia | exact IH].
Qed.

Theorem bin_frames_per_read cfg (reads : list (list (N * bytes))) : forall st,
  b_buf st = [] ->
  Forall (fun f => valid_bframe cfg (fst f) (snd f)) (concat reads) ->
  bin_feed_dels cfg st (map bstream reads) = (bmsgs (concat reads), map (fun _ => FOk) reads).
Proof.
  intros st Hb Hall. rewrite (bin_chunked cfg _ [] _ st Hb Hall (bopr_reads reads)). now rewrite map_map.
Qed.

(* the span is the specified frame when it holds no '{' either (bin_gate_span_spec) *)
Definition bin_justified (buf : bytes) (d : delivered) : Prop :=
  exists pre u c0 c1 rest,
    buf = pre ++ [123%N] ++ (u :: fst d) ++ [c0; c1] ++ [125%N] ++ rest /\ snd d = zb u /\ fst d <> [] /\
    crc16_bitwise (u :: fst d) = (c0 + 256 * c1)%N /\ ~ In 125%N ((u :: fst d) ++ [c0; c1]).

Lemma bin_justified_shift pre buf d : bin_justified buf d -> bin_justified (pre ++ buf) d.
Proof. intros (p & u & c0 & c1 & r & E & H). exists (pre ++ p), u, c0, c1, r. rewrite E, <- app_assoc. split; [reflexivity|exact H]. Qed.

Lemma bin_loop_gate cfg : cf_dec cfg [] <> DMsg -> forall fuel st acc, wfb (b_buf st) = true ->
  exists new, snd (fst (bin_loop fuel cfg st acc)) = acc ++ new /\
              forall d, In d new -> bin_justified (b_buf st) d.
Proof.
  intros Hd0. apply (bin_loop_cases cfg (fun _ st acc r => wfb (b_buf st) = true ->
    exists new, snd (fst r) = acc ++ new /\ forall d, In d new -> bin_justified (b_buf st) d)).
  1, 2: intros; exists []; split; [symmetry; apply app_nil_r | intros ? []].
  intros _ st st1 acc r C D IH Hw.
  destruct (bin_check_true _ _ Hw C) as (j & dd & c0 & c1 & rest & Ebuf & Hnin & Hcrc & Hb1 & Hl & Hu).
  rewrite (bin_get_frame_checked _ _ _ _ _ Hb1 Hl) in *. rewrite (bin_advance_checked _ _ _ _ _ Hb1 Hl) in IH.
  destruct dd as [|u pdu]; [contradiction|]. cbn [tl b_buf] in *.
  assert (Hr : wfb rest = true) by (rewrite Ebuf, !wfb_app, !andb_true_iff in Hw; tauto).
  destruct (IH Hr) as (new & -> & Hj). exists ((pdu, b_uid (b_hdr st1)) :: new).
  split; [now rewrite <- app_assoc|]. intros d [<-|Hin].
  - exists j, u, c0, c1, rest. cbn [fst snd]. repeat split; try assumption. intros ->. contradiction.
  - rewrite Ebuf, !app_assoc. apply bin_justified_shift, Hj, Hin.
Qed.

Example valid_bframe_example :
  let cfg := {| cf_dec := fun _ => DMsg; cf_rules := server_decoder; cf_units := [1]; cf_single := false |} in
  valid_bframe cfg 1 [3; 0; 1; 0; 2]%N.
Proof. cbv zeta. constructor; try reflexivity. discriminate. Qed.

Example bopr_example :
  let f := spec_adu_binary 1 [3; 0; 1; 0; 2]%N in
  bopr [] [(1, [3; 0; 1; 0; 2]); (1, [3; 0; 1; 0; 2]); (1, [3; 0; 1; 0; 2])]%N [[]; f ++ firstn 1 f; skipn 1 f ++ f; []].
Proof.
  cbv zeta. set (fr := (1%N, [3; 0; 1; 0; 2]%N)). cbn [bopr].
  exists [], [fr; fr; fr], []. repeat split; [cbn; lia|].
  exists [fr], [fr; fr], [123%N]. split; [reflexivity|]. split; [vm_compute; reflexivity|]. split; [cbn; lia|].
  exists [fr; fr], [], []. split; [reflexivity|]. split; [vm_compute; reflexivity|]. split; [cbn; lia|].
  exists [], [], []. repeat split. cbn; lia.
Qed.
