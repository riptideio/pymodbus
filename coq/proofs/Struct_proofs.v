(* Struct_proofs.v — round-trip, length and well-formedness lemmas for the struct model (theories/Struct.v). *)
From PM.theories Require Import Base Struct.
From PM.proofs Require Import Base_proofs.
Open Scope list_scope.
Open Scope Z_scope.
(* lia must see / and mod ([le_bytes], the half range m / 2 of [in_range]); the setting is global:
   it also holds in every file that loads this one *)
Ltac Zify.zify_post_hook ::= Z.to_euclidean_division_equations.

Lemma le_bytes_length w v : length (le_bytes w v) = w.
Proof. revert v. induction w as [|w IH]; intros v; cbn [le_bytes length]; [reflexivity|]. now rewrite IH. Qed.

Lemma pow256_S w : pow256 (S w) = 256 * pow256 w.
Proof. unfold pow256. rewrite Nat2Z.inj_succ, Z.pow_succ_r by lia. reflexivity. Qed.

Lemma le_value_le_bytes w v : 0 <= v < pow256 w -> le_value (le_bytes w v) = v.
Proof.
  revert v. induction w as [|w IH]; intros v Hv.
  - change (pow256 0) with 1 in Hv. cbn [le_bytes le_value]. lia.
  - cbn [le_bytes le_value]. rewrite pow256_S in Hv.
    rewrite IH, Z2N.id by lia. lia.
Qed.

Lemma le_bytes_wfb w v : wfb (le_bytes w v) = true.
Proof.
  revert v. induction w as [|w IH]; intros v; [reflexivity|].
  cbn [le_bytes]. apply wfb_cons. split; [lia|apply IH].
Qed.

Lemma le_value_bound bs : wfb bs = true -> 0 <= le_value bs < pow256 (length bs).
Proof.
  induction bs as [|b t IH]; [change (pow256 (length [])) with 1; cbn [le_value]; lia|].
  intros [Hb Ht]%wfb_cons. specialize (IH Ht). cbn [le_value length]. rewrite pow256_S. lia.
Qed.

Lemma le_bytes_le_value bs : wfb bs = true -> le_bytes (length bs) (le_value bs) = bs.
Proof.
  induction bs as [|b t IH]; [reflexivity|]. intros [Hb Ht]%wfb_cons.
  cbn [length le_bytes le_value]. f_equal.
  - rewrite <- (Z.mod_unique_pos _ 256 (le_value t) (Z.of_N b)) by lia. apply N2Z.id.
  - rewrite <- (Z.div_unique_pos _ 256 (le_value t) (Z.of_N b)) by lia. apply IH, Ht.
Qed.

Lemma pow256_values :
  pow256 1 = 256 /\ pow256 2 = 65536 /\ pow256 4 = 4294967296 /\ pow256 8 = 18446744073709551616.
Proof. repeat split; reflexivity. Qed.

(* m / 2 is an exact half: the division equations alone leave lia a remainder *)
Lemma pow256_even c : pow256 (fwidth c) = 2 * (pow256 (fwidth c) / 2).
Proof. destruct c; reflexivity. Qed.

Lemma to_unsigned_range c v :
  in_range c v = true -> 0 <= to_unsigned c v < pow256 (fwidth c).
Proof.
  unfold in_range, to_unsigned. pose proof (pow256_even c).
  destruct (fsigned c), (v <? 0) eqn:E; lia.
Qed.

Lemma of_to_unsigned c v : in_range c v = true -> of_unsigned c (to_unsigned c v) = v.
Proof.
  unfold in_range, to_unsigned, of_unsigned. pose proof (pow256_even c).
  destruct (fsigned c), (v <? 0) eqn:E; cbn [andb]; try lia.
  - destruct (pow256 (fwidth c) / 2 <=? v + pow256 (fwidth c)) eqn:E2; lia.
  - destruct (pow256 (fwidth c) / 2 <=? v) eqn:E2; lia.
Qed.

Lemma of_unsigned_range c u : 0 <= u < pow256 (fwidth c) -> in_range c (of_unsigned c u) = true.
Proof.
  unfold in_range, of_unsigned. pose proof (pow256_even c).
  destruct (fsigned c); cbn [andb]; [|lia].
  destruct (pow256 (fwidth c) / 2 <=? u) eqn:E; lia.
Qed.

Lemma to_of_unsigned c u : 0 <= u < pow256 (fwidth c) -> to_unsigned c (of_unsigned c u) = u.
Proof.
  unfold to_unsigned, of_unsigned. pose proof (pow256_even c).
  destruct (fsigned c && (pow256 (fwidth c) / 2 <=? u)) eqn:E;
    [destruct (u - pow256 (fwidth c) <? 0) eqn:E2 | destruct (u <? 0) eqn:E2]; lia.
Qed.

Lemma of_unsigned_unsigned c u : fsigned c = false -> of_unsigned c u = u.
Proof. unfold of_unsigned. now intros ->. Qed.

Lemma pack1_Ok big c v b :
  pack1 big c v = Ok b ->
  in_range c v = true /\ b = let le := le_bytes (fwidth c) (to_unsigned c v) in if big then rev le else le.
Proof. unfold pack1. destruct (in_range c v); [|discriminate]. intros H. now injection H as <-. Qed.

Lemma pack1_length big c v b : pack1 big c v = Ok b -> length b = fwidth c.
Proof. intros [_ ->]%pack1_Ok. destruct big; cbv zeta; rewrite ?rev_length; apply le_bytes_length. Qed.

Lemma pack1_wfb big c v b : pack1 big c v = Ok b -> wfb b = true.
Proof. intros [_ ->]%pack1_Ok. destruct big; cbv zeta; rewrite ?wfb_rev; apply le_bytes_wfb. Qed.

Lemma unpack1_pack1 big c v b : pack1 big c v = Ok b -> unpack1 big c b = v.
Proof.
  intros [Hr ->]%pack1_Ok. unfold unpack1. destruct big; cbv zeta; rewrite ?rev_involutive;
  (rewrite le_value_le_bytes by (apply to_unsigned_range, Hr)); apply of_to_unsigned, Hr.
Qed.

Lemma pack1_unpack1 big c bs :
  length bs = fwidth c -> wfb bs = true -> pack1 big c (unpack1 big c bs) = Ok bs.
Proof.
  intros Hl Hw. unfold pack1, unpack1. set (l := if big then rev bs else bs).
  assert (Hll : length l = fwidth c) by (destruct big; subst l; now rewrite ?rev_length).
  assert (Hwl : wfb l = true) by (destruct big; subst l; now rewrite ?wfb_rev).
  pose proof (le_value_bound l Hwl) as Hb. rewrite Hll in Hb.
  rewrite of_unsigned_range, to_of_unsigned, <- Hll, le_bytes_le_value by assumption.
  destruct big; subst l; now rewrite ?rev_involutive.
Qed.

Lemma pack1_raises big c v : in_range c v = false -> pack1 big c v = Raise StructError.
Proof. unfold pack1. intros ->. reflexivity. Qed.

Lemma pack_Ok_ind big (P : list fmtc -> list Z -> bytes -> Prop) :
  P [] [] [] ->
  (forall c fs v vs b1 b2, pack1 big c v = Ok b1 -> P fs vs b2 -> P (c :: fs) (v :: vs) (b1 ++ b2)) ->
  forall fs vs b, pack big fs vs = Ok b -> P fs vs b.
Proof.
  intros H0 HS. induction fs as [|c fs IH]; intros [|v vs] b H; try discriminate H.
  - injection H as <-. exact H0.
  - cbn [pack] in H. destruct (pack1 big c v) as [b1|] eqn:E1; [|discriminate].
    destruct (pack big fs vs) as [b2|] eqn:E2; [|discriminate]. injection H as <-. auto.
Qed.

Lemma pack_length big fs vs b : pack big fs vs = Ok b -> length b = fmt_size fs.
Proof.
  revert fs vs b. apply pack_Ok_ind; [reflexivity|]. intros c fs v vs b1 b2 H1 IH.
  rewrite app_length, IH, (pack1_length _ _ _ _ H1). reflexivity.
Qed.

Lemma pack_wfb big fs vs b : pack big fs vs = Ok b -> wfb b = true.
Proof.
  revert fs vs b. apply pack_Ok_ind; [reflexivity|]. intros c fs v vs b1 b2 H1 IH.
  now rewrite wfb_app, IH, (pack1_wfb _ _ _ _ H1).
Qed.

Lemma unpack_go_pack big fs vs b : pack big fs vs = Ok b -> unpack_go big fs b = vs.
Proof.
  revert fs vs b. apply pack_Ok_ind; [reflexivity|]. intros c fs v vs b1 b2 H1 IH.
  pose proof (pack1_length _ _ _ _ H1) as Hl. cbn [unpack_go].
  now rewrite firstn_app_exact, skipn_app_exact, IH, (unpack1_pack1 _ _ _ _ H1).
Qed.

Theorem unpack_pack big fs vs b : pack big fs vs = Ok b -> unpack big fs b = Ok vs.
Proof.
  intros H. unfold unpack. rewrite (pack_length _ _ _ _ H), Nat.eqb_refl.
  f_equal. apply (unpack_go_pack _ _ _ _ H).
Qed.

Lemma pack1_FH_be16 v : 0 <= v < 65536 -> pack1 true FH v = Ok (be16 v).
Proof.
  intros Hv. unfold pack1, in_range, to_unsigned. cbn [fsigned fwidth]. change (pow256 2) with 65536.
  replace ((0 <=? v) && (v <? 65536)) with true by lia. replace (v <? 0) with false by lia. reflexivity.
Qed.

Lemma pack_H_be16 v : 0 <= v < 65536 -> pack true [FH] [v] = Ok (be16 v).
Proof. intros Hv. cbn [pack]. now rewrite (pack1_FH_be16 v Hv). Qed.

Lemma unpack_wrong_length big fs bs : length bs <> fmt_size fs -> unpack big fs bs = Raise StructError.
Proof. intros H. unfold unpack. apply Nat.eqb_neq in H. rewrite H. reflexivity. Qed.
