(* FrA_tcp_proofs.v — lemmas about the socket-framer model instantiated with the GENERATED
   code record [GenFramerA.tcp] (and [base]).  A changed _hsize, slice bound, comparison,
   struct format or branch structure in socket_framer.py changes [tcp] and breaks the bridge
   lemmas below (they are proved by computation on the generated terms). *)
From PM.theories Require Import Base Expr Struct FrBaseA FrTcp FrSpecA.
From PM.Generated Require Import GenFramerA.
From PM.proofs Require Import Base_proofs Struct_proofs FrA_stream_proofs.
Open Scope list_scope.
Open Scope Z_scope.

Lemma tcp_skel_ok : t_skel tcp = tcp_skel_expected.
Proof. reflexivity. Qed.

Definition hdr0 : thdr := {| h_tid := 0; h_pid := 0; h_len := 0; h_uid := 0 |}.

Lemma hdr_consts : t_hdr_init tcp = hdr0 /\ t_hdr_adv tcp = hdr0 /\ t_hdr_reset tcp = hdr0.
Proof. repeat split; reflexivity. Qed.

Lemma ready_eq st : t_isready tcp st = (Z.of_nat (length (t_buf st)) >? 7).
Proof. apply z2b_b2z. Qed.

Lemma advance_eq st :
  t_advance tcp st = {| t_buf := pyfrom (t_buf st) (7 + h_len (t_hdr st) - 1); t_hdr := hdr0 |}.
Proof. reflexivity. Qed.

Lemma reset_eq st : t_reset tcp st = {| t_buf := []; t_hdr := hdr0 |}.
Proof. reflexivity. Qed.

Lemma getframe_eq st :
  t_getframe tcp st = pyslice (t_buf st) 7 (7 + h_len (t_hdr st) - 1).
Proof. reflexivity. Qed.

Lemma deliv_eq data h :
  t_deliv tcp data h = {| d_pdu := data; d_tid := h_tid h; d_pid := h_pid h; d_uid := h_uid h |}.
Proof. reflexivity. Qed.

Lemma cf_short_eq st : beval (tenv tcp st) (t_cf_short tcp) = (h_len (t_hdr st) <? 2).
Proof. apply z2b_b2z. Qed.

Lemma cf_complete_eq st :
  beval (tenv tcp st) (t_cf_complete tcp) = (Z.of_nat (length (t_buf st)) - 7 + 1 >=? h_len (t_hdr st)).
Proof. apply z2b_b2z. Qed.

Lemma wait_eq st : beval (tenv tcp st) (t_wait tcp) = (h_len (t_hdr st) >=? 2).
Proof. apply z2b_b2z. Qed.

Lemma errfc_eq fc : beval (env_of [("result.function_code"%string, fc)]) (t_errfc tcp) = (fc <? 128).
Proof. apply z2b_b2z. Qed.

Definition hdr_of (hb : bytes) : thdr :=
  match unpack_go true [FH; FH; FH; FB] hb with
  | [a; b; c; d] => {| h_tid := a; h_pid := b; h_len := c; h_uid := d |}
  | _ => hdr0
  end.

(* [unpack_go] of four formats yields four values: the fallback of [hdr_of] is never taken *)
Lemma hdr_assign_unpack b h :
  hdr_assign (t_unpack_targets tcp) (unpack_go true [FH; FH; FH; FB] b) h = Some (hdr_of b).
Proof. reflexivity. Qed.

Lemma check_ready st : (7 < length (t_buf st))%nat ->
  t_check tcp st =
  Ok (let h := hdr_of (firstn 7 (t_buf st)) in
      let st1 := {| t_buf := t_buf st; t_hdr := h |} in
      if h_len h <? 2 then (t_advance tcp st1, false)
      else if Z.of_nat (length (t_buf st)) - 7 + 1 >=? h_len h then (st1, true) else (st1, false)).
Proof.
  intros Hlen. unfold t_check. rewrite ready_eq. replace (_ >? 7) with true by lia.
  change (eval _ (t_unpack_lo tcp)) with 0. change (eval _ (t_unpack_hi tcp)) with 7.
  rewrite pyslice_nonneg by lia. change (Z.to_nat 7 - Z.to_nat 0)%nat with 7%nat. cbn [Z.to_nat skipn].
  change (t_unpack_fmt tcp) with [FH; FH; FH; FB]. change (t_unpack_big tcp) with true.
  unfold unpack. rewrite firstn_length_le by lia. cbn [fmt_size fold_right fwidth Nat.add Nat.eqb bind].
  rewrite hdr_assign_unpack. rewrite cf_short_eq, cf_complete_eq. cbn [t_hdr t_buf].
  destruct (_ <? 2); [|destruct (_ >=? _)]; reflexivity.
Qed.

Lemma getframe_skipn st : 1 <= h_len (t_hdr st) ->
  t_getframe tcp st = firstn (Z.to_nat (h_len (t_hdr st) - 1)) (skipn 7 (t_buf st)).
Proof. intros H. rewrite getframe_eq, pyslice_nonneg by lia. f_equal. lia. Qed.

Lemma advance_skipn st : 1 <= h_len (t_hdr st) ->
  t_buf (t_advance tcp st) = skipn (7 + Z.to_nat (h_len (t_hdr st) - 1)) (t_buf st).
Proof. intros H. rewrite advance_eq. cbn [t_buf]. rewrite pyfrom_nonneg by lia. f_equal. lia. Qed.

Definition mbap (tid pid len uid : Z) : bytes := be16 tid ++ be16 pid ++ be16 len ++ [Z.to_N uid].

Lemma hdr_of_mbap tid pid len uid :
  0 <= tid < 65536 -> 0 <= pid < 65536 -> 0 <= len < 65536 -> 0 <= uid < 256 ->
  hdr_of (mbap tid pid len uid) = {| h_tid := tid; h_pid := pid; h_len := len; h_uid := uid |}.
Proof.
  intros H1 H2 H3 H4. unfold hdr_of. rewrite (unpack_go_pack true _ [tid; pid; len; uid] (mbap tid pid len uid)); [reflexivity|].
  cbn [pack]. now rewrite !pack1_FH_be16, pack1_B.
Qed.

Definition fmbap (f : frame) : bytes := mbap (f_tid f) (f_pid f) (Z.of_nat (length (f_pdu f)) + 1) (f_uid f).
Definition fhdr (f : frame) : thdr :=
  {| h_tid := f_tid f; h_pid := f_pid f; h_len := Z.of_nat (length (f_pdu f)) + 1; h_uid := f_uid f |}.

Lemma spec_adu_tcp_mbap tid pid uid pdu :
  spec_adu_tcp tid pid uid pdu = mbap tid pid (Z.of_nat (length pdu) + 1) uid ++ pdu.
Proof. unfold spec_adu_tcp, mbap. now rewrite <- !app_assoc. Qed.

Lemma adu_tcp_mbap f : spec_adu KTcp f = fmbap f ++ f_pdu f.
Proof. apply spec_adu_tcp_mbap. Qed.

Lemma adu_tcp_length f : length (spec_adu KTcp f) = (7 + length (f_pdu f))%nat.
Proof. now rewrite adu_tcp_mbap, app_length. Qed.

Lemma tcp_adu_ne f : spec_adu KTcp f <> [].
Proof. now rewrite adu_tcp_mbap. Qed.

(* [ok] is a parameter: a caller who knows the lengths passes [true] or [false] and proves the equation by lia *)
Lemma check_header f b h ok : tcp_wf f -> (7 < length b)%nat -> firstn 7 b = fmbap f ->
  ok = (Z.of_nat (length (f_pdu f)) + 7 <=? Z.of_nat (length b)) ->
  t_check tcp {| t_buf := b; t_hdr := h |} = Ok ({| t_buf := b; t_hdr := fhdr f |}, ok).
Proof.
  intros (Ht & Hp & Hu & Hl1 & Hl2) Hb E ->. rewrite check_ready by exact Hb. cbn [t_buf].
  unfold fmbap in E. rewrite E, hdr_of_mbap by lia. cbn [h_len]. replace (_ <? 2) with false by lia.
  fold (fhdr f). destruct (_ <=? _) eqn:El; [replace (_ >=? _) with true by lia|replace (_ >=? _) with false by lia];
    reflexivity.
Qed.

Definition tcp_good (dec : bytes -> dres) (units : list Z) (single : bool) (f : frame) : Prop :=
  tcp_wf f /\ is_msg (dec (f_pdu f)) = true /\ validate_unit base units single (Some (f_uid f)) = Ok true.

Lemma t_validate c u :
  validate_unit base (c_units c) (single_of (t_single_default tcp) c) (Some u) = Ok (spec_accepts KTcp c u).
Proof. apply validate_spec. Qed.

Lemma valid_good dec c f :
  valid_frame KTcp dec c f -> tcp_good dec (c_units c) (single_of (t_single_default tcp) c) f.
Proof. intros (Hwf & Hm & Hacc). refine (conj Hwf (conj Hm _)). now rewrite t_validate, Hacc. Qed.

Lemma head_check f rest h : tcp_wf f ->
  let st := {| t_buf := fmbap f ++ f_pdu f ++ rest; t_hdr := h |} in
  t_isready tcp st = true /\ t_check tcp st = Ok ({| t_buf := t_buf st; t_hdr := fhdr f |}, true).
Proof.
  intros Hwf st. pose proof Hwf as (_ & _ & _ & Hl & _).
  assert (Hlen : length (t_buf st) = (7 + (length (f_pdu f) + length rest))%nat) by (cbn [st t_buf]; now rewrite !app_length).
  split; [rewrite ready_eq; lia|].
  apply check_header; [exact Hwf|lia|now apply firstn_app_exact|lia].
Qed.

Lemma head_getframe f rest : t_getframe tcp {| t_buf := fmbap f ++ f_pdu f ++ rest; t_hdr := fhdr f |} = f_pdu f.
Proof.
  rewrite getframe_skipn by (cbn; lia). cbn [t_buf t_hdr fhdr h_len].
  rewrite skipn_app_exact by reflexivity. apply firstn_app_exact. lia.
Qed.

Lemma head_advance f rest :
  t_advance tcp {| t_buf := fmbap f ++ f_pdu f ++ rest; t_hdr := fhdr f |} = {| t_buf := rest; t_hdr := hdr0 |}.
Proof.
  rewrite advance_eq. cbn [t_buf t_hdr fhdr h_len]. rewrite pyfrom_nonneg by lia. f_equal.
  rewrite app_assoc. apply skipn_app_exact. rewrite app_length. change (length (fmbap f)) with 7%nat. lia.
Qed.

Section Loop.
Variable dec : bytes -> dres.
Variable units : list Z.
Variable single : bool.
Notation loop := (t_loop base tcp dec).   (* the loop of the generated code with this decoder *)

Lemma validate_some u : exists r, validate_unit base units single (Some u) = Ok r.
Proof. rewrite validate_spec. eauto. Qed.

Lemma loop_head n f rest h : tcp_wf f ->
  loop (S n) units single {| t_buf := spec_adu KTcp f ++ rest; t_hdr := h |} =
  let st1 := {| t_buf := spec_adu KTcp f ++ rest; t_hdr := fhdr f |} in
  let next := loop n units single {| t_buf := rest; t_hdr := hdr0 |} in
  match validate_unit base units single (Some (f_uid f)) with
  | Raise e => (st1, [], Exc e)
  | Ok false => next
  | Ok true =>
      match dec (f_pdu f) with
      | DMsg _ => cons_d (spec_delivery KTcp f) next
      | DNone => (st1, [], Exc ModbusIOExc)
      | DRaise e => (st1, [], Exc e)
      end
  end.
Proof.
  intros Hwf. rewrite adu_tcp_mbap, <- app_assoc. cbn [t_loop].
  destruct (head_check f rest h Hwf) as [-> ->]. cbn [t_buf t_hdr fhdr h_uid].
  destruct (validate_unit _ _ _ _) as [[|]|e]; [|now rewrite head_advance|reflexivity].
  unfold t_process. rewrite head_getframe, head_advance. now destruct (dec (f_pdu f)).
Qed.

Lemma loop_frame n f rest h :
  tcp_good dec units single f ->
  loop (S n) units single {| t_buf := spec_adu KTcp f ++ rest; t_hdr := h |} =
  cons_d (spec_delivery KTcp f) (loop n units single {| t_buf := rest; t_hdr := hdr0 |}).
Proof. intros (Hwf & Hmsg & Hval). rewrite loop_head, Hval by exact Hwf. now destruct (dec (f_pdu f)). Qed.

Lemma loop_foreign n f rest h :
  tcp_wf f -> validate_unit base units single (Some (f_uid f)) = Ok false ->
  loop (S n) units single {| t_buf := spec_adu KTcp f ++ rest; t_hdr := h |} =
  loop n units single {| t_buf := rest; t_hdr := hdr0 |}.
Proof. intros Hwf Hval. now rewrite loop_head, Hval. Qed.

(* p of ANY length, also 1..7 bytes (no complete header yet) *)
Lemma loop_partial n f p q h :
  tcp_wf f -> spec_adu KTcp f = p ++ q -> q <> [] ->
  exists h', loop (S n) units single {| t_buf := p; t_hdr := h |} = ({| t_buf := p; t_hdr := h' |}, [], Done).
Proof.
  intros Hwf Hsplit Hq. pose proof Hwf as (_ & _ & _ & Hl & _). cbn [t_loop]. rewrite ready_eq. cbn [t_buf].
  destruct (Z.of_nat (length p) >? 7) eqn:H8; [|eexists; reflexivity].
  rewrite (check_header f p h false Hwf); [| lia | |].
  - rewrite wait_eq. cbn [t_hdr fhdr h_len]. replace (_ >=? 2) with true by lia. eexists; reflexivity.
  - rewrite <- (firstn_app_exact (fmbap f) (f_pdu f) 7 eq_refl), <- adu_tcp_mbap, Hsplit, firstn_app.
    replace (7 - length p)%nat with 0%nat by lia. apply eq_sym, app_nil_r.
  - apply (f_equal (@length N)) in Hsplit. rewrite adu_tcp_length, app_length in Hsplit.
    destruct q; [now elim Hq|cbn [length] in Hsplit; lia].
Qed.

End Loop.

Lemma tcp_framer_ok dec c :
  framer_ok KTcp dec c Build_tstate t_buf t_hdr hdr0 (fun _ => True)
    (fun n => t_loop base tcp dec n (c_units c) (single_of (t_single_default tcp) c)) (t_recv base tcp dec c).
Proof.
  split; try reflexivity; try exact I.
  - exact tcp_adu_ne.
  - intros n f rest h Hv. apply loop_frame, valid_good, Hv.
  - intros n f rest h Hwf Ha. apply loop_foreign; [exact Hwf|]. now rewrite t_validate, Ha.
  - intros n f p q h Hwf E Hq _. destruct (loop_partial dec (c_units c) (single_of (t_single_default tcp) c) n f p q h Hwf E Hq) as (h' & E').
    exists h'. split; [exact E'|exact I].
Qed.

Lemma build_eq tid pid uid fc data :
  t_build tcp tid pid uid fc data =
  (do h <- pack true [FH; FH; FH; FB; FB] [tid; pid; Z.of_nat (length data) + 2; uid; fc]; Ok (h ++ data)).
Proof. reflexivity. Qed.

Theorem tcp_build_spec tid pid uid fc data :
  0 <= tid < 65536 -> 0 <= pid < 65536 -> 0 <= uid < 256 -> 0 <= fc < 256 ->
  Z.of_nat (length data) + 2 < 65536 ->
  t_build tcp tid pid uid fc data = Ok (spec_adu_tcp tid pid uid (Z.to_N fc :: data)).
Proof.
  intros H1 H2 H3 H4 H5. rewrite build_eq. cbn [pack]. rewrite !pack1_FH_be16, !pack1_B by lia. cbn [bind].
  unfold spec_adu_tcp. cbn [length]. replace (Z.of_nat (S (length data)) + 1) with (Z.of_nat (length data) + 2) by lia.
  now rewrite <- !app_assoc.
Qed.

(* the data of C06_tcp_fixed_witness: the first read ends exactly 7 bytes into the frame, the second is
   its PDU, and the frame is delivered.  The decoder's second arm (the 7 header bytes) is dead: the
   framer hands no incomplete frame to the decoder. *)
Definition tcp_refute_dec (pdu : bytes) : dres :=
  match pdu with
  | [3%N; 0%N; 0%N; 0%N; 1%N] => DMsg 3
  | [0%N; 1%N; 0%N; 0%N; 0%N; 6%N; 1%N] => DMsg 0
  | _ => DNone
  end.
Definition tcp_refute_cfg : cfg := {| c_units := [1]; c_single := Some false |}.
Definition tcp_refute_frame : frame := {| f_tid := 1; f_pid := 0; f_uid := 1; f_pdu := [3%N; 0%N; 0%N; 0%N; 1%N] |}.
Definition tcp_refute_chunks : list bytes := [[0%N; 1%N; 0%N; 0%N; 0%N; 6%N; 1%N]; [3%N; 0%N; 0%N; 0%N; 1%N]].

Lemma skipn_add {A} a b (l : list A) : skipn (a + b) l = skipn b (skipn a l).
Proof.
  revert l. induction a as [|a IH]; intros l; [reflexivity|].
  destruct l as [|x l]; [now rewrite !skipn_nil|]. cbn [Nat.add skipn]. apply IH.
Qed.

Theorem tcp_check_gate st st1 :
  t_check tcp st = Ok (st1, true) ->
  t_buf st1 = t_buf st /\ t_hdr st1 = hdr_of (firstn 7 (t_buf st)) /\ 2 <= h_len (t_hdr st1) /\
  t_getframe tcp st1 = firstn (Z.to_nat (h_len (t_hdr st1) - 1)) (skipn 7 (t_buf st)) /\
  Z.of_nat (length (t_getframe tcp st1)) = h_len (t_hdr st1) - 1 /\
  t_buf st = firstn 7 (t_buf st) ++ t_getframe tcp st1 ++ t_buf (t_advance tcp st1).
Proof.
  intros H.
  assert (Hr : t_isready tcp st = true) by (revert H; unfold t_check; now destruct (t_isready tcp st)).
  rewrite ready_eq in Hr. rewrite check_ready in H by lia. cbv zeta in H.
  remember (hdr_of (firstn 7 (t_buf st))) as h eqn:Eh.
  destruct (h_len h <? 2) eqn:E2; [discriminate|]. destruct (_ >=? h_len h) eqn:Ec; [|discriminate].
  injection H as <-. rewrite getframe_skipn, advance_skipn by (cbn [t_hdr]; lia). cbn [t_buf t_hdr].
  repeat split; [lia| |].
  - rewrite firstn_length, skipn_length. lia.
  - now rewrite skipn_add, !firstn_skipn.
Qed.
