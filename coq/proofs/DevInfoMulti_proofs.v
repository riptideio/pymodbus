(* DevInfoMulti_proofs.v — the multi-item / text extension of the Read Device Identification model
   (theories/DevInfoMulti.v) over Generated/GenDevInfo.code: it agrees with the base model on byte-string
   identities, the size bound holds when len() is the encoded length, and the witness identities that the
   refutations of Props/C20.v run on. *)
From PM.theories Require Import Base Expr DevInfo DevInfoMulti.
From PM.Generated Require Import GenDevInfo.
From PM.proofs Require Import Base_proofs DevInfo_proofs.
Open Scope string_scope.
Open Scope list_scope.
Open Scope Z_scope.

Lemma mpage_items_cons space k i t :
  mpage_items code space ((k, i) :: t) =
  if space - (2 + it_len i) <=? 0 then ([], Some k)
  else let '(acc, oos) := mpage_items code (space - (2 + it_len i)) t in ((k, i) :: acc, oos).
Proof. cbn [mpage_items]. rewrite space_after_eq, out_of_space_eq. reflexivity. Qed.

Definition lift_obj (o : object) : mobject := (fst o, MOne (item_of_bytes (snd o))).
Definition lift_item (o : object) : Z * item := (fst o, item_of_bytes (snd o)).

Lemma truthy_lift v : truthy (MOne (item_of_bytes v)) = nonempty v.
Proof.
  destruct v; cbn; [reflexivity|]. unfold blen. cbn [length].
  destruct (Z.of_nat (S (length v)) =? 0) eqn:E; [lia|reflexivity].
Qed.

Lemma mobjects_of_lift idn ids :
  mobjects_of (lift_identity idn) ids = map lift_obj (objects_of idn ids).
Proof.
  unfold mobjects_of, objects_of. induction ids as [|k t IH]; [reflexivity|]. cbn [map filter snd].
  unfold lift_identity at 1. rewrite truthy_lift. unfold obj_nonempty at 1. cbn [snd].
  destruct (nonempty (idn k)); cbn [map]; rewrite IH; reflexivity.
Qed.

Lemma flat_items_lift l : flat_items (map lift_obj l) = map lift_item l.
Proof.
  induction l as [|[k v] t IH]; [reflexivity|]. cbn [map flat_items flat_map]. unfold flat_items in IH.
  rewrite IH. reflexivity.
Qed.

Lemma mpage_items_lift l : forall space,
  mpage_items code space (map lift_item l) =
  (map lift_item (fst (page_objs code space l)), snd (page_objs code space l)).
Proof.
  induction l as [|[k v] t IH]; intros space; [reflexivity|].
  cbn [map]. unfold lift_item at 1. cbn [fst snd]. rewrite mpage_items_cons, page_objs_cons.
  change (it_len (item_of_bytes v)) with (blen v).
  destruct (space - (2 + blen v) <=? 0); [reflexivity|]. rewrite IH.
  destruct (page_objs code (space - (2 + blen v)) t). reflexivity.
Qed.

Lemma mser_items_lift l : mser_items (map lift_item l) = ser_objs l.
Proof.
  induction l as [|[k v] t IH]; [reflexivity|]. cbn [map mser_items ser_objs lift_item fst snd].
  rewrite IH. reflexivity.
Qed.

Lemma mfactory_get_lift idn c oid :
  mfactory_get code (lift_identity idn) c oid =
  match factory_get code idn c oid with Ok l => Ok (map lift_obj l) | Raise e => Raise e end.
Proof.
  unfold mfactory_get, factory_get. destruct (zlookup c (c_lookup code)) as [[r|r r0|]|]; try reflexivity.
  - rewrite mobjects_of_lift. reflexivity.
  - change (lift_identity idn oid) with (MOne (item_of_bytes (idn oid))).
    rewrite truthy_lift, !mobjects_of_lift. destruct (nonempty (idn oid)); reflexivity.
Qed.

Lemma multi_conservative idn c oid :
  mserver_reply code (lift_identity idn) c oid = server_reply code idn c oid.
Proof.
  unfold mserver_reply, server_reply, mexecute, execute.
  destruct (beval _ (c_reject_object_id code)); [reflexivity|].
  destruct (beval _ (c_reject_read_code code)); [reflexivity|].
  rewrite mfactory_get_lift. destruct (factory_get code idn c oid) as [info|e]; [|reflexivity].
  cbn [bind]. unfold mencode_page, encode_page, mpage_of, page_of.
  rewrite flat_items_lift, mpage_items_lift.
  destruct (page_objs code (space0 code) info) as [objs oos].
  cbn [fst snd mp_code mp_more mp_next mp_items pg_code pg_more pg_next pg_objs].
  rewrite mser_items_lift, map_length. reflexivity.
Qed.

Definition val100 (b : N) : item := item_of_bytes (repeat b 100).

(* object 0 (100 bytes) and a two-item list at 0x80: the first page takes object 0 and the
   list's first item; the continuation starts again at the list's first item *)
Definition resend_identity : midentity :=
  mid_of [(0, MOne (val100 86%N)); (128, MMany [val100 97%N; val100 98%N])].

Definition received (rs : list response) : list object := flat_map (fun r => info_objects (rs_info r)) rs.

(* a three-item list that alone is larger than a page: the same two items forever *)
Definition loop_identity : midentity := mid_of [(128, MMany [val100 97%N; val100 98%N; val100 99%N])].

Definition loop_response : response :=
  {| rs_sub := 14; rs_code := 3; rs_conformity := 131; rs_more := 255; rs_next := 128; rs_count := 2;
     rs_info := [(128, VMany [repeat 97%N 100; repeat 98%N 100])] |}.

Lemma mtransact_loop oid : oid = 0 \/ oid = 128 -> mtransact code loop_identity 3 oid = DOk (RResp loop_response).
Proof. intros [-> | ->]; vm_compute; reflexivity. Qed.

Lemma multi_loop fuel : mchain code loop_identity 3 0 fuel = (repeat loop_response fuel, ChainOutOfFuel).
Proof.
  assert (H : forall fuel oid, oid = 0 \/ oid = 128 ->
              mchain code loop_identity 3 oid fuel = (repeat loop_response fuel, ChainOutOfFuel)).
  { clear. induction fuel as [|f IH]; intros oid Ho; [reflexivity|].
    cbn [mchain]. rewrite (mtransact_loop oid Ho). cbn [rs_more rs_next loop_response Z.eqb Pos.eqb].
    rewrite (IH 128) by (right; reflexivity). reflexivity. }
  apply H. left; reflexivity.
Qed.

(* 200 characters U+00E9: len() = 200, UTF-8 = 400 bytes *)
Definition text_item : item := {| it_len := 200; it_wire := flat_map (fun _ => [195%N; 169%N]) (repeat tt 200) |}.
Definition text_identity : midentity := mid_of [(0, MOne text_item)].

Definition maccurate (idn : midentity) : Prop :=
  forall k, match idn k with MOne i => accurate i | MMany l => Forall accurate l end.

Definition items_size (l : list (Z * item)) : Z := fold_right (fun ki s => 2 + it_len (snd ki) + s) 0 l.

Lemma mpage_items_size its : forall space, 0 < space ->
  items_size (fst (mpage_items code space its)) < space.
Proof.
  induction its as [|[k i] t IH]; intros space Hs; [cbn; lia|].
  rewrite mpage_items_cons. destruct (space - (2 + it_len i) <=? 0) eqn:E; [cbn; lia|].
  specialize (IH (space - (2 + it_len i)) ltac:(lia)).
  destruct (mpage_items code (space - (2 + it_len i)) t) as [acc oos]. cbn [fst items_size fold_right snd] in *. lia.
Qed.

Lemma mpage_items_incl its : forall space x, In x (fst (mpage_items code space its)) -> In x its.
Proof.
  induction its as [|[k i] t IH]; intros space x H; [exact H|].
  rewrite mpage_items_cons in H. destruct (space - (2 + it_len i) <=? 0); [destruct H|].
  specialize (IH (space - (2 + it_len i)) x).
  destruct (mpage_items code (space - (2 + it_len i)) t) as [acc oos]. cbn [fst] in *.
  destruct H as [H|H]; [left; exact H | right; auto].
Qed.

Lemma mser_items_length its : forall b,
  Forall (fun ki => accurate (snd ki)) its -> mser_items its = Ok b ->
  Z.of_nat (length b) = items_size its.
Proof.
  induction its as [|[k i] t IH]; intros b Ha H; cbn [mser_items] in H; [now inversion H|].
  apply bind_Ok in H as (h & Eh%pack_bytes_length & H). apply bind_Ok in H as (r & Er & H).
  injection H as <-. inversion Ha as [|? ? Hi Ht]; subst. specialize (IH r Ht Er).
  rewrite !app_length, Eh. unfold accurate, blen, items_size in *. cbn [fold_right snd length] in *. lia.
Qed.

Lemma items_of_accurate idn k x : maccurate idn -> In x (items_of (k, idn k)) -> accurate (snd x).
Proof.
  intros Ha H. specialize (Ha k). unfold items_of in H. cbn [fst snd] in H. destruct (idn k) as [i|l].
  - destruct H as [<-|[]]. exact Ha.
  - apply in_map_iff in H as [i [<- Hi]]. rewrite Forall_forall in Ha. apply Ha. exact Hi.
Qed.

Lemma mobjects_of_val idn ids o : In o (mobjects_of idn ids) -> snd o = idn (fst o).
Proof. unfold mobjects_of. intros [Hin _]%filter_In. now apply in_map_iff in Hin as (k & <- & _). Qed.

Lemma info_accurate idn c oid info x :
  maccurate idn -> mfactory_get code idn c oid = Ok info -> In x (flat_items info) -> accurate (snd x).
Proof.
  intros Ha Hg Hx. unfold flat_items in Hx. apply in_flat_map in Hx as [[k v] [Hin Hx]].
  enough (v = idn k) by (subst v; eapply items_of_accurate; eauto).
  unfold mfactory_get in Hg. destruct (zlookup c (c_lookup code)) as [[r|r r0|]|]; inversion Hg; subst;
    [apply (mobjects_of_val _ _ _ Hin)..|]. destruct Hin as [E|[]]. now inversion E.
Qed.

Lemma maccurate_lift idn : maccurate (lift_identity idn).
Proof. intro k. reflexivity. Qed.

Lemma mexecute_info idn c oid rc info :
  mexecute code idn c oid = Ok (MInfoResponse rc info) -> mfactory_get code idn c oid = Ok info.
Proof.
  unfold mexecute. destruct (beval _ (c_reject_object_id code)); [discriminate|].
  destruct (beval _ (c_reject_read_code code)); [discriminate|].
  destruct (mfactory_get code idn c oid); cbn [bind]; intros H; now inversion H.
Qed.

Lemma text_bound_partial idn c oid pdu :
  maccurate idn -> mserver_reply code idn c oid = Ok pdu -> Z.of_nat (length pdu) <= max_pdu.
Proof.
  intros Ha H. unfold mserver_reply, max_pdu in *.
  destruct (mexecute code idn c oid) as [[e|rc info]|e] eqn:Ex; cbn [bind] in H; [| |discriminate];
    apply bind_Ok in H as (b & E & H); injection H as <-.
  - apply pack_bytes_length in E. rewrite E. cbn. lia.
  - apply mexecute_info in Ex as Hg. unfold mencode_page, mpage_of in E.
    pose proof (mpage_items_size (flat_items info) (space0 code)) as Hs.
    pose proof (mpage_items_incl (flat_items info) (space0 code)) as Hi.
    destruct (mpage_items code (space0 code) (flat_items info)) as [its oos].
    cbn [fst mp_code mp_more mp_next mp_items] in *.
    apply bind_Ok in E as (h1 & E1%pack_bytes_length & E). apply bind_Ok in E as (body & E2 & E).
    apply bind_Ok in E as (h2 & E3%pack_bytes_length & E). injection E as <-.
    apply mser_items_length in E2; [|apply Forall_forall; intros x Hx; eapply info_accurate; eauto].
    rewrite space0_eq in Hs. specialize (Hs ltac:(lia)).
    cbn [length] in *. rewrite !app_length, E1, E3. lia.
Qed.
