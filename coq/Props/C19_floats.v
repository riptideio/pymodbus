(* Props/C19_floats.v — the float-VALUE corollary of C19, in its own file because it goes
   through Flocq's [binary_float_of_bits_of_binary_float] and therefore depends on the
   classical axioms of Coq's real-number library (printed below); the bit-pattern
   theorems of Props/C19.v are closed under the global context.
   Every IEEE-754 binary16 / binary32 / binary64 value — signed zeros, subnormals,
   infinities, NaNs with their payload — written as its IEEE encoding (what struct's
   'e' / 'f' / 'd' produce; that step is outside the model) survives builder + decoder
   under every byte-order x word-order pair, for sequences of any length. *)
From PM.theories Require Import Base Struct Payload.
From PM.Generated Require Import GenPayload.
From PM.proofs Require Import Payload_floats_proofs.
Open Scope list_scope.
Open Scope Z_scope.

Theorem C19_float_values_roundtrip : forall bo wo fs,
  let vs := map value_of_float fs in
  exists s vs', to_string code bo wo vs = Ok s /\
    decode_seq code bo wo (types vs) s = Ok (vs', length s) /\
    map float_of_value vs' = map Some fs.
Proof.
  intros bo wo fs vs. rewrite Payload_proofs.code_is_spec.
  destruct (Payload_proofs.roundtrip_spec bo wo vs (float_values_wf fs)) as (s & Hs & Hd).
  exists s, vs. repeat split; try assumption. apply float_of_values_of_floats.
Qed.
Print Assumptions C19_float_values_roundtrip.

(* non-vacuity: the smallest positive subnormal binary32 and minus infinity binary64 *)
Example C19_floats_nonvacuous :
  value_of_float (FV32 (Flocq.IEEE754.Bits.b32_of_bits 1)) = F32 1 /\
  value_of_float (FV64 (Flocq.IEEE754.Bits.b64_of_bits 0xFFF0000000000000)) = F64 0xFFF0000000000000.
Proof. split; vm_compute; reflexivity. Qed.
Print Assumptions C19_floats_nonvacuous.
