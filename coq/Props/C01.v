(* Props/C01.v — PDU wire format conforms to the Modbus application protocol.
   Proofs of more than a few lines are in proofs/Pdu_*_proofs.v.
   Spec side: theories/PduSpec.v ([msg], [spec_pdu], [spec_wf]: a transcription of MODBUS
   Application Protocol v1.1b3 section 6).  Code side: theories/Pdu.v ([obj], [py_pdu] =
   bytes([fc]) + encode(), [py_decode] = the factories' _helper), instantiated with the tables,
   layouts and constants that Generated/GenPdu.v regenerates from the source on every run.
   [abs o = Some m]: object [o] stands for spec message [m] and every field fits its wire width.
   All theorems quantify over all field values and all list lengths (unbounded Z / lists). *)
From PM.theories Require Import Base Struct PduCls PduSpec Pdu CorrPdu.
From PM.Generated Require Import GenPdu.
From PM.proofs Require Import Pdu_bits_proofs Pdu_proofs Pdu_more_proofs Pdu_dec_proofs Pdu_size_proofs.
Open Scope string_scope.
Open Scope list_scope.
Open Scope Z_scope.

(* tie of the hand-modelled methods' struct formats to the source *)
Theorem C01_formats_as_modelled : struct_fmts = modelled_fmts.
Proof. reflexivity. Qed.
Print Assumptions C01_formats_as_modelled.

(* tie of the constructors the harness builds messages through (parameters, defaults, statements) *)
Theorem C01_constructors_as_modelled : ctor_sigs = modelled_ctors.
Proof. reflexivity. Qed.
Print Assumptions C01_constructors_as_modelled.

Theorem C01_bitpack : forall bits, py_pack_bitstring bits = spec_pack_bits bits.
Proof. exact py_pack_spec. Qed.
Print Assumptions C01_bitpack.

Theorem C01_bitunpack : forall bs, py_unpack_bitstring bs = spec_unpack_bits bs.
Proof. exact py_unpack_spec. Qed.
Print Assumptions C01_bitunpack.

(* all bytes below 256: int2byte never raises on a packed byte *)
Theorem C01_bitpack_shape : forall bits,
  wfb (spec_pack_bits bits) = true /\
  Z.of_nat (length (spec_pack_bits bits)) = bit_byte_count (Z.of_nat (length bits)) /\
  bits_upto_pad bits (spec_unpack_bits (spec_pack_bits bits)) = true.
Proof. intros b. repeat split; [apply spec_pack_bits_wfb | apply spec_pack_bits_length | apply unpack_pack_upto_pad]. Qed.
Print Assumptions C01_bitpack_shape.

Theorem C01_encode_conforms : forall o m,
  mem_cls (class_of o) conforming_encode = true -> abs o = Some m -> py_pdu o = Ok (spec_pdu m).
Proof. exact encode_conforms. Qed.
Print Assumptions C01_encode_conforms.

(* through the matching decoder; read-bits responses: up to the wire's zero padding *)
Theorem C01_decode_conforms : forall m,
  spec_wf m = true -> conforming_decode m = true ->
  exists o d, py_decode (msg_is_request m) (spec_pdu m) = Ok o /\ class_of o = spec_class m /\
              abs o = Some d /\ msg_matches m d = true.
Proof. exact decode_conforms. Qed.
Print Assumptions C01_decode_conforms.

(* attributes decode() takes from the wire that [abs] does not look at (CorrPdu.wire_attrs_ok):
   WriteMultipleCoilsRequest.byte_count (read by execute()), the byte_count of read-bits responses,
   number_of_objects of the device-identification response *)
Theorem C01_decode_wire_attrs : forall m o, spec_wf m = true -> conforming_decode m = true ->
  py_decode (msg_is_request m) (spec_pdu m) = Ok o -> wire_attrs_ok m o = true.
Proof. exact decode_wire_attrs. Qed.
Print Assumptions C01_decode_wire_attrs.

(* the write requests: every attribute execute() reads is determined *)
Theorem C01_decode_fc15_byte_count : forall a cs, spec_wf (MWriteCoilsReq a cs) = true ->
  py_decode true (spec_pdu (MWriteCoilsReq a cs)) = Ok (OWriteCoilsReq a cs (bit_byte_count (len cs))).
Proof. intros a cs H. exact (decode_spec (MWriteCoilsReq a cs) H eq_refl). Qed.
Print Assumptions C01_decode_fc15_byte_count.

Theorem C01_decode_fc16_counts : forall a rs, spec_wf (MWriteRegsReq a rs) = true ->
  py_decode true (spec_pdu (MWriteRegsReq a rs)) = Ok (OWriteRegsReq a rs (len rs) (2 * len rs)).
Proof. intros a rs H. exact (decode_spec (MWriteRegsReq a rs) H eq_refl). Qed.
Print Assumptions C01_decode_fc16_counts.

Theorem C01_decode_fc23_counts : forall ra rq wa ws, spec_wf (MReadWriteRegsReq ra rq wa ws) = true ->
  py_decode true (spec_pdu (MReadWriteRegsReq ra rq wa ws)) = Ok (ORWReq ra rq wa ws (len ws) (2 * len ws)).
Proof. intros ra rq wa ws H. exact (decode_spec (MReadWriteRegsReq ra rq wa ws) H eq_refl). Qed.
Print Assumptions C01_decode_fc23_counts.

Theorem C01_dispatch_server : forall fc, lookup_fc server_function_table fc = spec_request_class fc.
Proof. exact dispatch_server. Qed.
Print Assumptions C01_dispatch_server.

Theorem C01_dispatch_client : forall fc, lookup_fc client_function_table fc = spec_response_class fc.
Proof. exact dispatch_client. Qed.
Print Assumptions C01_dispatch_client.

Theorem C01_subdispatch_server : forall fc sub,
  lookup_sub server_sub_function_table fc sub = spec_request_subclass fc sub.
Proof. exact subdispatch_server. Qed.
Print Assumptions C01_subdispatch_server.

Theorem C01_subdispatch_client : forall fc sub,
  lookup_sub client_sub_function_table fc sub = spec_response_subclass fc sub.
Proof. exact subdispatch_client. Qed.
Print Assumptions C01_subdispatch_client.

Theorem C01_exception_layout : forall fc ec, 1 <= fc < 128 -> is_u8 ec = true ->
  py_pdu (OExc fc (Z.lor fc exception_offset) ec) = Ok [Z.to_N (fc + 128); Z.to_N ec].
Proof.
  intros fc ec. intros Hf He. change exception_offset with 128. rewrite lor_offset by lia.
  apply (encode_conforms _ (MException fc ec)); [reflexivity|].
  unfold abs. cbn [abs_raw]. rewrite Z.eqb_refl. cbn [spec_wf]. unfold is_u8 in *.
  replace ((1 <=? fc) && (fc <? 128) && ((0 <=? ec) && (ec <? 256))) with true by lia. reflexivity.
Qed.
Print Assumptions C01_exception_layout.

Theorem C01_exception_decode : forall fc ec, 128 < fc < 256 -> (ec < 256)%N ->
  py_decode_client [Z.to_N fc; ec] = Ok (OExc (fc - 128) fc (Z.of_N ec)).
Proof. exact (fun fc ec H _ => exception_decode fc ec H). Qed.
Print Assumptions C01_exception_decode.

Theorem C01_exception_decode_strict : forall rest, py_decode_client (128%N :: rest) = Raise ModbusExc.
Proof. intros rest. reflexivity. Qed.
Print Assumptions C01_exception_decode_strict.

Theorem C01_encode_rejects : forall c a m,
  abs_raw (OFixed c a) = Some m -> spec_wf m = false -> py_pdu (OFixed c a) = Raise StructError.
Proof.
  intros c a m. intros Hr Hw. apply (encode_rejects _ m); try assumption; [|reflexivity].
  destruct c; try discriminate Hr; reflexivity.
Qed.
Print Assumptions C01_encode_rejects.

Theorem C01_encode_rejects_registers : forall c regs m,
  abs_raw (ORegsRsp c regs) = Some m -> spec_wf m = false -> py_pdu (ORegsRsp c regs) = Raise StructError.
Proof.
  intros c regs m. intros Hr Hw. apply (encode_rejects _ m); try assumption; [|reflexivity].
  destruct c; try discriminate Hr; reflexivity.
Qed.
Print Assumptions C01_encode_rejects_registers.

(* [spec_wf m = false]: a 16-/8-bit field out of range, a list too long for its count or byte-count field,
   a record or object header out of range.  [payload_ok]: raw byte payloads are real bytes; exception
   responses are for a function code 1..127 *)
Theorem C01_encode_rejects_all : forall o m,
  mem_cls (class_of o) conforming_encode = true -> abs_raw o = Some m -> spec_wf m = false -> payload_ok o = true ->
  py_pdu o = Raise StructError.
Proof. exact encode_rejects. Qed.
Print Assumptions C01_encode_rejects_all.

Theorem C01_pdu_length : forall m, len (spec_pdu m) = pdu_size m.
Proof. exact spec_pdu_length. Qed.
Print Assumptions C01_pdu_length.

(* [spec_limits]: the quantity / byte-count limits section 6 states *)
Theorem C01_pdu_limit : forall m, spec_limits m = true -> 1 <= len (spec_pdu m) <= 253.
Proof. exact spec_pdu_limit. Qed.
Print Assumptions C01_pdu_limit.

Theorem C01_pdu_max_attained :
  (exists m, msg_is_request m = true /\ spec_limits m = true /\ spec_wf m = true /\ len (spec_pdu m) = 253) /\
  (exists m, msg_is_request m = false /\ spec_limits m = true /\ spec_wf m = true /\ len (spec_pdu m) = 253).
Proof.
  split.
  - exists (MDiagReq 0 (repeat 0 125)). repeat split; vm_compute; reflexivity.
  - exists (MReportSlaveIdRsp (repeat 0%N 250) true). repeat split; vm_compute; reflexivity.
Qed.
Print Assumptions C01_pdu_max_attained.

(* field widths alone, no quantity limits; [byte_counted] (proofs/Pdu_size_proofs.v): the kinds governed by an
   8-bit byte count; 264 = the 10-byte header of the FC 23 request plus the largest even byte count *)
Theorem C01_pdu_wf_bound : forall m, spec_wf m = true -> byte_counted m = true -> len (spec_pdu m) <= 264.
Proof. exact spec_pdu_wf_bound. Qed.
Print Assumptions C01_pdu_wf_bound.

(* the full statement, false for pymodbus 2.4.0 (kept visible), and its refutations *)
Definition C01_full_statement : Prop :=
  (forall o m, abs o = Some m -> py_pdu o = Ok (spec_pdu m)) /\
  (forall m, spec_wf m = true ->
     exists o d, py_decode (msg_is_request m) (spec_pdu m) = Ok o /\ class_of o = spec_class m /\
                 abs o = Some d /\ msg_matches m d = true).

Theorem C01_fifo_encode_refuted :
  exists o m, abs o = Some m /\ class_of o = ReadFifoQueueResponse /\ py_pdu o <> Ok (spec_pdu m).
Proof.
  exists (OFifoRsp [4660; 22136]), (MReadFifoRsp [4660; 22136]). repeat split; vm_compute; discriminate.
Qed.
Print Assumptions C01_fifo_encode_refuted.

(* [decoded_matches m r] (proofs/Pdu_more_proofs.v): [r] is an object of the class of [m] that stands for [m] *)
Theorem C01_fifo_decode_refuted :
  exists m, spec_wf m = true /\ decoded_matches m (py_decode false (spec_pdu m)) = false.
Proof. exists (MReadFifoRsp [4660; 22136]). split; vm_compute; reflexivity. Qed.
Print Assumptions C01_fifo_decode_refuted.

Theorem C01_file_response_encode_refuted :
  exists o m, abs o = Some m /\ class_of o = ReadFileRecordResponse /\ py_pdu o <> Ok (spec_pdu m).
Proof.
  exists (OFileRecs ReadFileRecordResponse [mk_frec 0 0 [13; 254; 0; 32]%N 2 5]), (MReadFileRsp [[3582; 32]]).
  repeat split; vm_compute; discriminate.
Qed.
Print Assumptions C01_file_response_encode_refuted.

Theorem C01_slave_id_decode_refuted :
  exists m, spec_wf m = true /\ decoded_matches m (py_decode false (spec_pdu m)) = false.
Proof. exists (MReportSlaveIdRsp [17; 34]%N true). split; vm_compute; reflexivity. Qed.
Print Assumptions C01_slave_id_decode_refuted.

Theorem C01_diag_request_decode_refuted :
  exists m, spec_wf m = true /\ py_decode true (spec_pdu m) = Raise StructError.
Proof. exists (MDiagReq 0 [1; 2]). split; vm_compute; reflexivity. Qed.
Print Assumptions C01_diag_request_decode_refuted.

Example C01_nonvacuous :
  abs (OWriteCoilsReq 19 [true; false; true; true; false; false; true; true; true; false] 2)
    = Some (MWriteCoilsReq 19 [true; false; true; true; false; false; true; true; true; false]) /\
  py_pdu (OWriteCoilsReq 19 [true; false; true; true; false; false; true; true; true; false] 2)
    = Ok [15; 0; 19; 0; 10; 2; 205; 1]%N /\
  mem_cls WriteMultipleCoilsRequest conforming_encode = true /\
  spec_wf (MReadHoldingRsp [555; 0; 100]) = true /\ conforming_decode (MReadHoldingRsp [555; 0; 100]) = true /\
  py_decode false (spec_pdu (MReadHoldingRsp [555; 0; 100])) = Ok (ORegsRsp ReadHoldingRegistersResponse [555; 0; 100]).
Proof. repeat split; vm_compute; reflexivity. Qed.
