(* Props/C10.v — Requests act only on the addressed unit; broadcast acts on all.
   Each theorem is `exact` or a short derivation from proofs/Server_proofs.v.  All are about [Server.respond] /
   [Server.accepts] on the skeletons and constants that gen/gen_server.py regenerates on every run from server/sync.py,
   server/async_io.py, server/asynchronous.py (execute/_execute, send/_send, the unit list built in handle())
   and framer/__init__.py (_validate_unit_id).  [l : units S] is the hosted set: an arbitrary association list
   unit id -> store over an arbitrary store type; unit ids are unbounded Z; [rq_exec] is an arbitrary effect,
   possibly raising.  [is_bcast sk cfg rq] = the front-end has the broadcast branch, broadcast_enable is set
   and the request addresses unit 0. *)
From PM.theories Require Import Base Server.
From PM.Generated Require Import GenServer.
From PM.proofs Require Import Server_proofs.
Open Scope list_scope.
Open Scope Z_scope.

Theorem C10_hosted_set_stable : forall S sk, In sk all_fes -> forall cfg (l : units S) (rq : dreq S),
  u_keys S (fst (fst (respond S code sk cfg l rq))) = u_keys S l.
Proof. intros S sk H cfg l rq. rewrite (respond_spec S sk H). apply spec_keys. Qed.
Print Assumptions C10_hosted_set_stable.

Theorem C10_isolation : forall S sk, In sk all_fes -> forall cfg (l : units S) (rq : dreq S) v,
  cf_single cfg = false -> is_bcast S sk cfg rq = false -> v <> rq_uid rq ->
  u_get S (fst (fst (respond S code sk cfg l rq))) v = u_get S l v.
Proof.
  intros S sk H cfg l rq v Hs Hb Hv. rewrite (respond_spec S sk H).
  apply spec_isolation; [exact Hb | now rewrite (ctx_key_multi cfg _ Hs)].
Qed.
Print Assumptions C10_isolation.

Theorem C10_serve_isolation : forall S sk, In sk all_fes -> forall cfg v, cf_single cfg = false ->
  forall (rqs : list (dreq S)) (l : units S),
  (forall rq, In rq rqs -> is_bcast S sk cfg rq = false /\ rq_uid rq <> v) ->
  u_get S (fst (fst (serve S code sk cfg l rqs))) v = u_get S l v.
Proof.
  intros S sk H cfg v Hs rqs l Hall. apply (serve_preserves S (fun l => u_get S l v)); [exact H|].
  intros l0 rq Hr. destruct (Hall rq Hr) as [Hb Hv]. apply C10_isolation; auto.
Qed.
Print Assumptions C10_serve_isolation.

Theorem C10_serve_hosted_set_stable : forall S sk, In sk all_fes -> forall cfg (rqs : list (dreq S)) (l : units S),
  u_keys S (fst (fst (serve S code sk cfg l rqs))) = u_keys S l.
Proof.
  intros S sk H cfg rqs l. apply (serve_preserves S (u_keys S)); [exact H|].
  intros l0 rq _. now apply C10_hosted_set_stable.
Qed.
Print Assumptions C10_serve_hosted_set_stable.

Theorem C10_addressed : forall S sk, In sk all_fes -> forall cfg (l : units S) (rq : dreq S) s,
  cf_single cfg = false -> is_bcast S sk cfg rq = false -> u_get S l (rq_uid rq) = Some s ->
  u_get S (fst (fst (respond S code sk cfg l rq))) (rq_uid rq) = Some (fst (rq_exec rq s)).
Proof.
  intros S sk H cfg l rq s Hs Hb Hg. rewrite (respond_spec S sk H).
  rewrite <- (ctx_key_multi cfg (rq_uid rq) Hs) in Hg |- *. now apply spec_addressed.
Qed.
Print Assumptions C10_addressed.

Theorem C10_missing : forall S sk, In sk all_fes -> forall cfg (l : units S) (rq : dreq S),
  cf_single cfg = false -> is_bcast S sk cfg rq = false -> u_get S l (rq_uid rq) = None ->
  respond S code sk cfg l rq = (l, if cf_ignore cfg then [] else [the_out S rq (exc_of S rq 11)], None).
Proof.
  intros S sk H cfg l rq Hs Hb Hg. rewrite <- (ctx_key_multi cfg _ Hs) in Hg.
  exact (respond_absent S sk H cfg l rq Hb Hg).
Qed.
Print Assumptions C10_missing.

(* last hypothesis: request.execute raises on no unit — see C10_broadcast_refuted *)
Theorem C10_broadcast : forall S sk, In sk bcast_fes -> forall cfg (l : units S) (rq : dreq S),
  cf_bcast cfg = true -> rq_uid rq = 0 -> cf_single cfg = false -> NoDup (u_keys S l) ->
  (forall s, exists r, snd (rq_exec rq s) = Ok r) ->
  respond S code sk cfg l rq = (apply_all S rq l, [], None).
Proof. intros S sk H cfg l rq Hb Hu Hs Hnd Hok. rewrite (respond_spec_bcast S sk H). now apply spec_broadcast. Qed.
Print Assumptions C10_broadcast.

(* without that hypothesis: the walk in dict order that the first failure ends *)
Theorem C10_broadcast_exact : forall S sk, In sk bcast_fes -> forall cfg (l : units S) (rq : dreq S),
  cf_bcast cfg = true -> rq_uid rq = 0 -> cf_single cfg = false -> NoDup (u_keys S l) ->
  respond S code sk cfg l rq = (bcast_walk S rq l, [], None).
Proof. intros S sk H cfg l rq Hb Hu Hs Hnd. rewrite (respond_spec_bcast S sk H). now apply spec_broadcast_exact. Qed.
Print Assumptions C10_broadcast_exact.

Theorem C10_broadcast_single : forall S sk, In sk bcast_fes -> forall cfg s (rq : dreq S),
  cf_bcast cfg = true -> rq_uid rq = 0 -> cf_single cfg = true ->
  respond S code sk cfg [(0, s)] rq = ([(0, fst (rq_exec rq s))], [], None).
Proof. intros S sk H cfg s rq Hb Hu Hs. rewrite (respond_spec_bcast S sk H). now apply spec_broadcast_single. Qed.
Print Assumptions C10_broadcast_single.

(* a datastore failure on one unit ends the loop: later units never see the write *)
Definition C10_broadcast_full_statement : Prop :=
  forall S sk, In sk bcast_fes -> forall cfg (l : units S) (rq : dreq S),
  cf_bcast cfg = true -> rq_uid rq = 0 -> cf_single cfg = false -> NoDup (u_keys S l) ->
  fst (fst (respond S code sk cfg l rq)) = apply_all S rq l.

Theorem C10_broadcast_refuted : ~ C10_broadcast_full_statement.
Proof. exact c10_broadcast_refuted. Qed.
Print Assumptions C10_broadcast_refuted.

(* then C10_isolation / C10_addressed / C10_missing / C09_responds apply to unit 0 like to any id *)
Theorem C10_unit0_ordinary : forall S sk cfg (rq : dreq S),
  cf_bcast cfg = false \/ In sk nobcast_fes -> is_bcast S sk cfg rq = false.
Proof.
  intros S sk cfg rq [Hb|Hn]; unfold is_bcast, sp_bcast.
  - now rewrite Hb, andb_false_r.
  - apply nobcast_fes_iff in Hn as [_ ->]. reflexivity.
Qed.
Print Assumptions C10_unit0_ordinary.

Theorem C10_nonzero_ordinary : forall S sk cfg (rq : dreq S), rq_uid rq <> 0 -> is_bcast S sk cfg rq = false.
Proof.
  intros S sk cfg rq Hu. unfold is_bcast, sp_bcast. destruct (rq_uid rq =? 0) eqn:E; [lia|]. apply andb_false_r.
Qed.
Print Assumptions C10_nonzero_ordinary.

Theorem C10_every_frontend_classified : forall sk, In sk all_fes <-> In sk bcast_fes \/ In sk nobcast_fes.
Proof. intros sk. rewrite bcast_fes_iff, nobcast_fes_iff. destruct (has_bcast sk); intuition congruence. Qed.
Print Assumptions C10_every_frontend_classified.

Theorem C10_single : forall S sk, In sk all_fes -> forall cfg s (rq : dreq S),
  cf_single cfg = true -> is_bcast S sk cfg rq = false ->
  fst (fst (respond S code sk cfg [(0, s)] rq)) = [(0, fst (rq_exec rq s))].
Proof. intros S sk H cfg s rq Hs Hb. rewrite (respond_spec S sk H). now apply spec_single. Qed.
Print Assumptions C10_single.

Theorem C10_unit_filter : forall us single uid,
  unit_filter code us single uid = single || zmem 0 us || zmem 255 us || zmem uid us.
Proof. exact unit_filter_spec. Qed.
Print Assumptions C10_unit_filter.

(* [unit_list] = the list each handle() gives to the framer *)
Theorem C10_accepts : forall sk, In sk all_fes -> forall cfg hosted uid,
  accepts code sk cfg hosted uid =
    let ul := unit_list sk cfg hosted in
    Ok (cf_single cfg || zmem 0 ul || zmem 255 ul || zmem uid ul).
Proof. exact c10_accepts_spec. Qed.
Print Assumptions C10_accepts.

Theorem C10_hosted_accepted : forall sk, In sk all_fes -> forall cfg hosted uid,
  cf_single cfg = true \/ In uid hosted -> accepts code sk cfg hosted uid = Ok true.
Proof.
  intros sk H cfg hosted uid Hh. rewrite (c10_accepts_spec sk H). cbv zeta. f_equal.
  destruct Hh as [->|Hi]; [reflexivity|].
  rewrite (zmem_in _ _ (unit_list_incl sk cfg hosted uid Hi)). apply orb_true_r.
Qed.
Print Assumptions C10_hosted_accepted.

Theorem C10_foreign_dropped : forall sk, In sk all_fes -> forall cfg hosted uid,
  cf_single cfg = false ->
  let ul := unit_list sk cfg hosted in
  zmem 0 ul = false -> zmem 255 ul = false -> zmem uid ul = false ->
  accepts code sk cfg hosted uid = Ok false.
Proof.
  intros sk H cfg hosted uid Hs ul H0 H255 Hu. rewrite (c10_accepts_spec sk H). cbv zeta.
  fold ul. now rewrite Hs, H0, H255, Hu.
Qed.
Print Assumptions C10_foreign_dropped.

Theorem C10_broadcast_accepted : forall sk, In sk bcast_fes -> forall cfg hosted,
  cf_bcast cfg = true -> accepts code sk cfg hosted 0 = Ok true.
Proof. intros sk H cfg hosted. apply c10_broadcast_accepts_all, H. Qed.
Print Assumptions C10_broadcast_accepted.

Theorem C10_twisted_accepts : forall sk, In sk nobcast_fes -> forall cfg hosted uid,
  accepts code sk cfg hosted uid = Ok (cf_single cfg || zmem 0 hosted || zmem 255 hosted || zmem uid hosted).
Proof.
  intros sk H cfg hosted uid. apply nobcast_fes_iff in H as [H Hh]. rewrite (c10_accepts_spec sk H). cbv zeta.
  now rewrite (fe_shape sk H), unit_list_fe, Hh.
Qed.
Print Assumptions C10_twisted_accepts.

Theorem C10_twisted_udp_accepts_like_asyncio_udp : forall cfg hosted uid,
  cf_bcast cfg = false -> accepts code tw_udp cfg hosted uid = accepts code aio_udp cfg hosted uid.
Proof.
  intros cfg hosted uid Hb. unfold accepts. cbn [sk_passes_units tw_udp aio_udp].
  change tw_udp with (fe_skel false false). change aio_udp with (fe_skel true true). now rewrite !unit_list_fe, Hb.
Qed.
Print Assumptions C10_twisted_udp_accepts_like_asyncio_udp.

(* units 1, 2, 247 on the generated asyncio TCP skeleton: a write to unit 2, a broadcast, absent unit 9 *)
Example C10_nonvacuous :
  let mk uid := {| rq_tid := 5; rq_uid := uid; rq_fc := 6; rq_dest := 0;
       rq_exec := fun s : Z => (s + 1, Ok {| rs_fc := 6; rs_respond := true; rs_code := None |}) |} in
  let cfg := {| cf_single := false; cf_bcast := true; cf_ignore := true |} in
  let l := [(1, 10); (2, 20); (247, 30)] in
  In aio_tcp all_fes /\ In aio_tcp bcast_fes /\ In tw_udp nobcast_fes /\ NoDup (u_keys Z l) /\
  is_bcast Z aio_tcp cfg (mk 2) = false /\
  fst (fst (respond Z code aio_tcp cfg l (mk 2))) = [(1, 10); (2, 21); (247, 30)] /\
  respond Z code aio_tcp cfg l (mk 0) = ([(1, 11); (2, 21); (247, 31)], [], None) /\
  respond Z code aio_tcp cfg l (mk 9) = (l, [], None) /\
  accepts code aio_tcp cfg [1; 2; 247] 0 = Ok true /\
  accepts code sync_udp cfg [1; 2; 247] 0 = Ok true /\
  accepts code tw_udp cfg [1; 2; 247] 2 = Ok true /\ accepts code tw_udp cfg [1; 2; 247] 0 = Ok false /\
  accepts code aio_tcp {| cf_single := false; cf_bcast := false; cf_ignore := true |} [1; 2; 247] 9 = Ok false.
Proof.
  vm_compute. repeat split; try tauto.
  repeat constructor; cbn; intuition discriminate.
Qed.
