(* C13 add-on — ModbusSerialClient._wait_for_data, the polling loop behind every serial read of
   unknown length, as generated (Generated/GenWaitData.v).  Time is the virtual clock advanced by
   time.sleep; [obs], what in_waiting shows at each poll, is universally quantified. *)
From PM.theories Require Import Base WaitData.
From PM.Generated Require Import GenWaitData.
From PM.proofs Require Import WaitData_proofs.
Open Scope Z_scope.

Theorem C13_wait_code_is_spec : GenWaitData.code = spec_code.
Proof. reflexivity. Qed.
Print Assumptions C13_wait_code_is_spec.

(* with a timeout set the wait ends after at most timeout/sleep + 1 polls, whatever the line does *)
Theorem C13_wait_terminates : forall (obs : nat -> Z) t, 0 <= t ->
  exists s n, wait_for_data GenWaitData.code (Z.to_nat (t / 10000 + 2)) (Some t) obs = Some (s, n) /\
              Z.of_nat n <= max_polls GenWaitData.code t.
Proof.
  (* eq_refl : 0 < wc_sleep_us code; the 10000 of the statement is that constant up to conversion *)
  exact (fun obs t => wait_terminates code obs t eq_refl).
Qed.
Print Assumptions C13_wait_terminates.

(* the size handed to socket.read is 0 or a value in_waiting really showed *)
Theorem C13_wait_result_observed : forall (obs : nat -> Z) fuel timeout s n,
  wait_for_data GenWaitData.code fuel timeout obs = Some (s, n) ->
  s = 0 \/ exists j, (j < n)%nat /\ s = obs j.
Proof. exact (wait_result_observed code). Qed.
Print Assumptions C13_wait_result_observed.

(* a healthy reply (nothing, then n bytes, then still n bytes) is read after three polls; 20000 is
   two sleeps: the third poll must still fall inside the timeout *)
Theorem C13_wait_stable_data_returns : forall timeout n, 0 < n ->
  (match timeout with Some t => 20000 <= t | None => True end) ->
  wait_for_data GenWaitData.code 4 timeout (fun k => match k with O => 0 | _ => n end) = Some (n, 3%nat).
Proof. rewrite C13_wait_code_is_spec. exact wait_stable_data_returns. Qed.
Print Assumptions C13_wait_stable_data_returns.

(* FULL statement: the wait ends for every timeout setting.  Refuted by the witness below (timeout
   None / 0, silent line: finding F-C13-serial-timeout0-wait-for-data-hangs). *)
Definition C13_wait_full_statement : Prop :=
  forall timeout (obs : nat -> Z), exists fuel r, wait_for_data GenWaitData.code fuel timeout obs = Some r.

Theorem C13_wait_unbounded_refuted : forall fuel,
  wait_for_data GenWaitData.code fuel None (fun _ => 0) = None.
Proof.
  intros fuel. unfold wait_for_data.
  assert (H : forall f k el, wait_loop GenWaitData.code f None (fun _ => 0) k el 0 false = None).
  { induction f as [|f IH]; intros k el; [reflexivity|]. cbn. apply IH. }
  apply H.
Qed.
Print Assumptions C13_wait_unbounded_refuted.

Example C13_wait_nonvacuous :
  wait_for_data GenWaitData.code 10 (Some 50000) (fun k => Z.of_nat k) = Some (5, 6%nat) /\
  wait_for_data GenWaitData.code 10 (Some 1000000) (fun k => match k with O => 0 | S O => 3 | _ => 8 end) = Some (8, 4%nat).
Proof. split; vm_compute; reflexivity. Qed.
Print Assumptions C13_wait_nonvacuous.
