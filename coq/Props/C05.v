(* C05 — Invalid requests get the right exception and change nothing.
   Statements, each closed by [exact] of a lemma of proofs/, by a short proof from those (the longest,
   C05_history_exception_frame, is an induction over the history), or (the closed witnesses) by
   evaluation; vocabulary as in Props/C04.v ([faulty], [any_true]: Exec_fault_proofs.v).
   [spec_outcome] is the decision table of the property text (ExecSpec.v): limits 2000 / 125 / 1968 /
   123 / 125+121, byte count vs quantity, coil word in {0x0000, 0xFF00} -> 03; range not inside the
   table -> 02; unsupported function code -> 01. *)
From PM.theories Require Import Base Expr Store Exec ExecSpec ExecView.
From PM.Generated Require Import GenStore GenExec.
From PM.proofs Require Import Exec_proofs Exec_req_proofs Exec_hist_proofs Exec_fault_proofs.
Open Scope list_scope.
Open Scope Z_scope.

(* the full property: for EVERY wire request the outcome is the decision table's, with
   fc|0x80, and an exception leaves the store untouched *)
Definition C05_full_statement : Prop :=
  forall c w r c' o, inv c -> decode_attrs w = Ok r -> other_ok w ->
  serve XC std c r = (c', o) ->
  exec_outcome o = spec_outcome (abs c) w /\
  (forall code, spec_outcome (abs c) w = Some code -> o = Exc (Z.lor (wfc w) 128) code /\ c' = c).

(* FC5 accepts every value word (the guard is commented out and decode keeps only
   `value == 0xFF00`): word 0x1234 is answered normally and CLEARS the coil *)
Theorem C05_fc5_value_refuted :
  let w := WWriteCoil 0 4660 in
  decode_attrs w = Ok (req_of w) /\
  (let '(c', o) := serve XC std (ctx1 1) (req_of w) in
   vw o = Some (SEcho1 5 0 0) /\ cx_get SC c' 1 0 1 = Ok [0]) /\
  snd (spec_exec (abs (ctx1 1)) w) = SExc 133 3.
Proof. exact fc5_bad_word_accepted. Qed.
Print Assumptions C05_fc5_value_refuted.

(* FC15 tests len(self.values) instead of the wire quantity: quantity 20 with byte
   count 2 is accepted as a 16-coil write and echoed as quantity 16 *)
Theorem C05_fc15_quantity_refuted :
  let w := WWriteCoils 3 20 2 [255; 255] in
  decode_attrs w = Ok (req_of w) /\
  (let '(c', o) := serve XC std (ctx1 0) (req_of w) in
   vw o = Some (SEchoN 15 3 16) /\ cx_get SC c' 1 2 18 = Ok [0; 1; 1; 1; 1; 1; 1; 1; 1; 1; 1; 1; 1; 1; 1; 1; 1; 0]) /\
  snd (spec_exec (abs (ctx1 0)) w) = SExc 143 3.
Proof. exact fc15_short_data_accepted. Qed.
Print Assumptions C05_fc15_quantity_refuted.

Theorem C05_full_statement_refuted : ~ C05_full_statement.
Proof.
  intros H. destruct fc5_bad_word_accepted as (Hd & Hs & Hx).
  destruct (serve XC std (ctx1 1) (req_of (WWriteCoil 0 4660))) as [c' o] eqn:Es.
  destruct (H (ctx1 1) _ _ c' o (ctx1_inv 1) Hd I Es) as [H1 _]. destruct Hs as [Hv _].
  unfold exec_outcome in H1. rewrite Hv in H1. unfold spec_exec in Hx. rewrite <- H1 in Hx. discriminate Hx.
Qed.
Print Assumptions C05_full_statement_refuted.

Theorem C05_full_statement_refuted_fc5 :
  exists c w r, inv c /\ decode_attrs w = Ok r /\ other_ok w /\ ~ step_ok c r w.
Proof. exact fc5_refuted. Qed.
Print Assumptions C05_full_statement_refuted_fc5.

Theorem C05_full_statement_refuted_fc15 :
  exists c w r, inv c /\ decode_attrs w = Ok r /\ other_ok w /\ ~ step_ok c r w.
Proof.
  destruct fc15_short_data_accepted as (Hd & Hs & Hx).
  refine (response_refutes _ _ _ _ _ (ctx1_inv 0) Hd I _ Hx _); [destruct (serve XC std _ _); apply Hs|discriminate].
Qed.
Print Assumptions C05_full_statement_refuted_fc15.

(* the strongest true statement: outside the two regions (FC5 word in {0x0000,0xFF00};
   FC15 quantity <= 8*|data|) the outcome is exactly the decision table's, the exception
   carries fc|0x80, and the store is untouched *)
Theorem C05_classify_partial : forall c w r c' o,
  inv c -> decode_attrs w = Ok r -> other_ok w -> in_region w ->
  serve XC std c r = (c', o) ->
  exec_outcome o = spec_outcome (abs c) w /\
  (forall code, spec_outcome (abs c) w = Some code -> o = Exc (Z.lor (wfc w) 128) code /\ c' = c).
Proof. exact classify. Qed.
Print Assumptions C05_classify_partial.

(* an exception response means the store is the very same term: all four tables, every
   block, for EVERY wire request — also inside the two defect regions *)
Theorem C05_exception_frame : forall c w r c' fc code,
  inv c -> decode_attrs w = Ok r -> other_ok w ->
  serve XC std c r = (c', Exc fc code) -> c' = c.
Proof. exact exception_frame. Qed.
Print Assumptions C05_exception_frame.

(* ... and so along any preceding request history (trace = the steps of serve_all) *)
Theorem C05_history_exception_frame : forall ws rs c,
  inv c -> Forall2 (fun w r => decode_attrs w = Ok r) ws rs -> Forall other_ok ws ->
  forall c0 fc code c1, In (c0, Exc fc code, c1) (trace c rs) -> c1 = c0.
Proof.
  induction ws as [|w ws IH]; intros rs c Hi Hd Ho c0 fc code c1 Hin.
  - inversion Hd; subst. destruct Hin.
  - inversion Hd as [|w' r ws' rs' Hd1 Hd2]; subst. inversion Ho as [|? ? Ho1 Ho2]; subst.
    cbn [trace] in Hin. destruct (serve XC std c r) as [cn o] eqn:Es. destruct Hin as [Heq|Hin].
    + injection Heq as <- -> <-. eapply exception_frame; eassumption.
    + pose proof (step_inv c w r Hi Hd1 Ho1) as Hi1. rewrite Es in Hi1. cbn [fst] in Hi1.
      eapply IH; eassumption.
Qed.
Print Assumptions C05_history_exception_frame.

(* read/write-multiple performs no write unless both of its ranges are valid *)
Theorem C05_rwm_atomic : forall c ra rn wa wn wbc data r c' o,
  inv c -> decode_attrs (WRWM ra rn wa wn wbc data) = Ok r ->
  serve XC std c r = (c', o) ->
  in_range 1 rn 125 = true -> in_range 1 wn 121 = true -> wbc = wn * 2 ->
  range_ok (abs c) Holding wa wn && range_ok (abs c) Holding ra rn = false ->
  c' = c /\ o = Exc (Z.lor 23 128) 2.
Proof.
  intros c ra rn wa wn wbc data r c' o Hi Hd Hs H1 H2 H3 H4.
  destruct (classify c _ r c' o Hi Hd I I Hs) as [_ Hc].
  assert (E : spec_outcome (abs c) (WRWM ra rn wa wn wbc data) = Some 2).
  { cbn [spec_outcome]. rewrite H1, H2. replace (wbc =? wn * 2) with true by lia. cbn [negb orb].
    destruct (range_ok (abs c) Holding wa wn), (range_ok (abs c) Holding ra rn); try discriminate; reflexivity. }
  destruct (Hc 2 E) as [-> ->]. split; reflexivity.
Qed.
Print Assumptions C05_rwm_atomic.

(* unsupported function codes: everything outside ServerDecoder's function table *)
Theorem C05_unsupported_function : forall c fc,
  supported fc = false -> serve XC std c (req0 fc) = (c, Exc (Z.lor fc 128) 1).
Proof. intros c fc H. unfold serve, req0. cbn [r_fc]. rewrite (dispatch_unsupported fc H). reflexivity. Qed.
Print Assumptions C05_unsupported_function.

(* datastores that raise: the plan says which datastore call (validate / getValues / setValues,
   counted over the request) raises.  A raised call is answered with exception 04 carrying fc|0x80;
   without one the behaviour is the fault-free one; if the first call raises, the store is untouched *)
Theorem C05_datastore_failure : forall c plan r st' o,
  serve XC faulty {| fs_ctx := c; fs_plan := plan |} r = (st', o) ->
  exists used, plan = used ++ fs_plan st' /\
    (any_true used = true -> o = Exc (Z.lor (r_fc r) 128) 4) /\
    (any_true used = false -> serve XC std c r = (fs_ctx st', o)) /\
    (forall p, plan = true :: p -> fs_ctx st' = c).
Proof. exact datastore_failure. Qed.
Print Assumptions C05_datastore_failure.

(* but "exception => nothing changed" fails when the datastore raises in the read-back
   getValues that FC5 / FC6 / FC23 perform AFTER their setValues *)
Theorem C05_failure_after_write_refuted :
  let r := req_of (WWriteCoil 0 0) in
  let '(st', o) := serve XC faulty {| fs_ctx := ctx1 1; fs_plan := [false; false; true] |} r in
  o = Exc 133 4 /\ cx_get SC (ctx1 1) 1 0 1 = Ok [1] /\ cx_get SC (fs_ctx st') 1 0 1 = Ok [0].
Proof. vm_compute. repeat split. Qed.
Print Assumptions C05_failure_after_write_refuted.

(* PDUs that never reach execute.  The theorems above assume [decode_attrs w = Ok r]; these two say
   exactly when that holds, and the witness is a PDU outside it whose header fields demand exception 03
   (quantity 3, byte count 4, four data bytes): decode raises struct.error, nothing is answered.  PDUs with
   consistent header fields but truncated data are malformed frames, not constrained by this property *)
Theorem C05_decodable_iff_fc16 : forall a n bc data,
  (exists r, decode_attrs (WWriteRegs a n bc data) = Ok r) <-> (2 * Z.to_nat n <= length data)%nat.
Proof. intros. cbn [decode_attrs]. rewrite bind_ok_iff. apply take_words_ok_iff. Qed.
Print Assumptions C05_decodable_iff_fc16.

Theorem C05_decodable_iff_fc23 : forall ra rn wa wn wbc data,
  (exists r, decode_attrs (WRWM ra rn wa wn wbc data) = Ok r) <-> (2 * Z.to_nat ((wbc + 1) / 2) <= length data)%nat.
Proof. intros. cbn [decode_attrs]. rewrite bind_ok_iff. apply take_words_ok_iff. Qed.
Print Assumptions C05_decodable_iff_fc23.

Theorem C05_short_register_data_refuted :
  let w := WWriteRegs 0 3 4 [0; 1; 0; 2] in
  decode_attrs w = Raise StructError /\ forall s, spec_outcome s w = Some 3.
Proof. split; [reflexivity|intros s; reflexivity]. Qed.
Print Assumptions C05_short_register_data_refuted.

(* a byte count larger than the data carried (5, 6, 255, ... with 4 data bytes) is decoded, reaches
   execute and is answered with exception 03 *)
Theorem C05_byte_count_beyond_data_is_03 : forall bc, bc <> 4 ->
  let w := WWriteRegs 0 2 bc [0; 1; 0; 2] in
  exists r, decode_attrs w = Ok r /\ snd (serve XC std (ctx1 0) r) = Exc 144 3.
Proof.
  intros bc Hbc. eexists. split; [reflexivity|].
  unfold serve. cbn [r_fc]. rewrite (dispatch_script XC 16 _ _ eq_refl). exec_simpl.
  replace (negb (bc =? 2 * 2)) with true by lia. reflexivity.
Qed.
Print Assumptions C05_byte_count_beyond_data_is_03.

Example C05_nonvacuous :
  inv (ctx1 0) /\
  (* quantity limit: 2000 coils is legal (address error here), 2001 is a value error *)
  exec_outcome (snd (serve XC std (ctx1 0) (req_of (WRead Coils 0 2000)))) = Some 2 /\
  exec_outcome (snd (serve XC std (ctx1 0) (req_of (WRead Coils 0 2001)))) = Some 3 /\
  exec_outcome (snd (serve XC std (ctx1 0) (req_of (WRead Coils 0 32)))) = None /\
  exec_outcome (snd (serve XC std (ctx1 0) (req_of (WRead Coils 1 32)))) = Some 2 /\
  exec_outcome (snd (serve XC std (ctx1 0) (req_of (WWriteRegs 0 1 3 [0; 1; 2])))) = Some 3 /\
  supported 9 = false /\ serve XC std (ctx1 0) (req0 9) = (ctx1 0, Exc 137 1).
Proof. split; [apply ctx1_inv|]. vm_compute. repeat split. Qed.
