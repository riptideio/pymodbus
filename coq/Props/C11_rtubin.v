(* Props/C11_rtubin.v — C11, RTU / binary half: resynchronisation.  The general theorems take the lemmas of
   proofs/FrB_*_proofs.v (C11_recover_rtu is derived here from rtu_recv_run and rtu_stop_backlog); the witnesses on
   concrete frames are proved here, by evaluation of the models and the scenario lemmas of FrB_witness_proofs.v. *)
From PM.theories Require Import Base Expr Struct FrBCode Crc FrBCommon FrRtu FrBin FrSpecB.
From PM.Generated Require Import GenFramerB.
From PM.proofs Require Import Base_proofs FrB_witness_proofs FrB_rtu_proofs FrB_bin_proofs.
Open Scope list_scope.
Open Scope N_scope.

(* RTU recovery / backlog bound, request direction (ServerDecoder table), for every buffer content: 268 = 255 + 10 + 3
   is the largest extent the request-table size oracle can return (less than two maximum-size frames), so a candidate
   never waits for more than 268 bytes — it is delivered (C07_gate_rtu), skipped, or dropped with what is behind it —
   and the backlog never exceeds 267 bytes.  After an exception the serial handlers reset the framer.  On the response
   table there is no such bound (C11_rtu_fifo_extent_refuted: 64 KB extent; C06_rtu_mei_refuted: KeyError for ever). *)
Theorem C11_recover_rtu : forall cfg st chunk st' ds,
  cf_rules cfg = server_decoder -> wfb (r_buf st ++ chunk) = true -> hdr_bounded (r_hdr st) ->
  rtu_recv cfg st chunk = (st', ds, FOk) -> (zlen (r_buf st') < 268)%Z /\ hdr_bounded (r_hdr st').
Proof.
  intros cfg st chunk st' ds Hr Hw Hh R.
  destruct (rtu_recv_run cfg st chunk) as (pre & new & st0 & st1 & x & Eb & H0 & _ & S & E);
    [rewrite Hr; exact known_server|exact Hw|].
  rewrite E in R. inversion R. subst. rewrite Eb, wfb_app in Hw. apply andb_prop in Hw as [_ Hw].
  apply (rtu_stop_backlog cfg st0); try assumption; [intros fc; rewrite Hr; apply server_rule_tot|].
  destruct H0 as [-> | ->]; [exact Hh|apply hdr_bounded_empty].
Qed.
Print Assumptions C11_recover_rtu.

Theorem C11_rtu_header_bounded : hdr_bounded (r_hdr rtu_init) /\ hdr_bounded hdr_empty.
Proof. split; [exact hdr_bounded_init|exact hdr_bounded_empty]. Qed.
Print Assumptions C11_rtu_header_bounded.

(* RTU, once synchronised (empty buffer; header {} or the initial dict): C06_rtu *)
Theorem C11_rtu_after_sync : forall cfg chunks (R : list frame) st,
  r_buf st = [] -> (r_hdr st = hdr_empty \/ r_hdr st = r_hdr rtu_init) ->
  Forall (vf cfg) R -> concat chunks = stream R ->
  rtu_feed_dels cfg st chunks = (msgs R, map (fun _ => FOk) chunks).
Proof. exact rtu_chunked_sync. Qed.
Print Assumptions C11_rtu_after_sync.

(* RTU resynchronisation step: the candidate is still incomplete (buffer untouched), or it is complete with a bad CRC
   and costs the whole buffer *)
Theorem C11_rtu_bad_crc_resyncs : forall cfg st st2, rtu_check cfg st = (st2, Ok false) ->
  (r_buf st2 = [] /\ r_hdr st2 = hdr_empty) \/ r_buf st2 = r_buf st.
Proof. intros cfg st st2 H. destruct (rtu_check_buf cfg st st2 _ H) as [E|(_ & E)]; [right|left]; exact E. Qed.
Print Assumptions C11_rtu_bad_crc_resyncs.

(* binary, partial: whole delimiter-free frames per read (the situation of finding F-C11-binary-several-per-read) *)
Theorem C11_binary_after_sync : forall cfg (reads : list (list (N * bytes))) st,
  b_buf st = [] ->
  Forall (fun f => valid_bframe cfg (fst f) (snd f)) (concat reads) ->
  bin_feed_dels cfg st (map bstream reads) = (bmsgs (concat reads), map (fun _ => FOk) reads).
Proof. exact bin_frames_per_read. Qed.
Print Assumptions C11_binary_after_sync.

(* finding F-C11-binary-short-brace-deaf: on the bare framer "{}" makes struct.error escape for ever *)
Theorem C11_binary_refuted :
  let f := spec_adu_binary 1 pdu_a in
  exits (bin_feed cfg_server bin_init [[123; 125]; f; f; f]) =
    [FExn StructError; FExn StructError; FExn StructError; FExn StructError] /\
  deliveries (bin_feed cfg_server bin_init [[123; 125]; f; f; f]) = [].
Proof. cbv zeta. repeat apply conj; vm_compute; reflexivity. Qed.
Print Assumptions C11_binary_refuted.

(* finding F-C11-rtubin-undecodable-frame-deaf: on the bare framer a CRC-valid frame the decoder rejects is never removed *)
Theorem C11_rtu_undecodable_refuted :
  let cfg := {| cf_dec := fun pdu => if bytes_eqb pdu [3; 0] then DNone else DMsg;
                cf_rules := client_decoder; cf_units := [1%Z]; cf_single := true |} in
  let bad := spec_adu_rtu 1 [3; 0] in
  let f := spec_adu_rtu 1 [3; 2; 0; 7] in
  exits (rtu_feed cfg rtu_init [bad; f; f; f]) = [FExn ModbusIOExc; FExn ModbusIOExc; FExn ModbusIOExc; FExn ModbusIOExc] /\
  deliveries (rtu_feed cfg rtu_init [bad; f; f; f]) = [].
Proof. cbv zeta. repeat apply conj; vm_compute; reflexivity. Qed.
Print Assumptions C11_rtu_undecodable_refuted.

(* the input of finding F-C11-rtu-fifo-size: the Read FIFO Queue byte count is a 16-bit value,
   garbage "01 18 01 00" asks for 262 = (1 << 8) + 0 + 6 bytes *)
Theorem C11_rtu_fifo_fixed :
  let f := spec_adu_rtu 1 (3 :: 250 :: repeat 7 250) in
  frame_size (lookup_rule client_decoder 24) [1; 24; 1; 0] = Ok 262%Z /\
  length (deliveries (rtu_feed cfg_client rtu_init [[1; 24; 1; 0]; f; f; f; f])) = 2%nat.
Proof.
  intros f. split; [vm_compute; reflexivity|].
  (* the first read announces 262 bytes; they are there with the third, fail the CRC, all is dropped *)
  rewrite rtu_feed_swallows with (g := [1; 24; 1; 0]) (waiting := [f]) (c := f) (rest := [f; f])
                               (u := 1) (fc := 24) (t := [1; 0]) (h := hdr_empty) (l := 262%Z);
    [|reflexivity|vm_compute; reflexivity|left; reflexivity
     |intros q; apply fifo_size_announced|vm_compute; reflexivity..].
  assert (V : valid_frame cfg_client true 1 (3 :: 250 :: repeat 7 250))
    by (apply valid_frame_intro; intros; vm_compute; reflexivity).
  unfold f. cbn [rtu_feed]. rewrite !(rtu_whole_frame_waiting cfg_client hdr_empty 1 _ V (or_introl eq_refl)). reflexivity.
Qed.
Print Assumptions C11_rtu_fifo_fixed.

(* finding F-C11-rtu-fifo-extent: the 16-bit FIFO byte count is taken at face value.  A conformant Read FIFO Queue
   response has byte count <= 2 + 2 * 31 = 64 (frame <= 70 bytes); a header '.. 18 hi lo' makes the receiver wait for
   hi * 256 + lo + 6 bytes (477 for 01 D7, 65 541 for FF FF: more than the two maximum frames C11 allows), and when
   the extent is reached the CRC fails and every valid frame buffered behind the garbage is dropped with it *)
Theorem C11_rtu_fifo_extent_refuted :
  let f := spec_adu_rtu 1 [3; 2; 0; 7] in
  frame_size (lookup_rule client_decoder 24) [17; 24; 0; 64] = Ok 70%Z /\
  frame_size (lookup_rule client_decoder 24) [17; 24; 1; 215] = Ok 477%Z /\
  frame_size (lookup_rule client_decoder 24) [1; 24; 255; 255] = Ok 65541%Z /\
  deliveries (rtu_feed cfg_client rtu_init [[1; 24; 255; 255]; f; f; f; f]) = [] /\
  length (r_buf (fst (fst (rtu_feed cfg_client rtu_init [[1; 24; 255; 255]; f; f; f; f])))) = 32%nat /\
  deliveries (rtu_feed cfg_client rtu_init ([17; 24; 1; 215] :: repeat f 70)) = repeat ([3; 2; 0; 7], 1%Z) 2.
Proof.
  intros f. repeat apply conj; [vm_compute; reflexivity..|].
  (* 477 bytes are announced; they are there with the 68th frame, fail the CRC, all is dropped *)
  rewrite rtu_feed_swallows with (g := [17; 24; 1; 215]) (waiting := repeat f 67) (c := f) (rest := repeat f 2)
                               (u := 17) (fc := 24) (t := [1; 215]) (h := hdr_empty) (l := 477%Z);
    [|reflexivity|vm_compute; reflexivity|left; reflexivity
     |intros q; apply fifo_size_announced|vm_compute; reflexivity..].
  vm_compute. reflexivity.
Qed.
Print Assumptions C11_rtu_fifo_extent_refuted.

(* the input of finding F-C11-rtu-backlog-several-per-read: each read is consumed whole *)
Theorem C11_rtu_no_backlog_fixed :
  let f := spec_adu_rtu 1 pdu_a in
  map (fun n => length (r_buf (fst (fst (rtu_feed cfg_server rtu_init (repeat (f ++ f) n))))))
      [1; 2; 3; 4; 5]%nat = [0; 0; 0; 0; 0]%nat /\
  length (deliveries (rtu_feed cfg_server rtu_init (repeat (f ++ f) 5))) = 10%nat.
Proof.
  intros f. set (m := (pdu_a, 1%Z)).
  (* a read of two frames leaves the synchronised state, from the initial state and from itself *)
  assert (H0 : rtu_recv cfg_server rtu_init (f ++ f) = (rtu_reset rtu_init, [m; m], FOk)) by (vm_compute; reflexivity).
  assert (H1 : rtu_recv cfg_server (rtu_reset rtu_init) (f ++ f) = (rtu_reset rtu_init, [m; m], FOk)) by (vm_compute; reflexivity).
  assert (H : forall n, rtu_feed cfg_server rtu_init (repeat (f ++ f) (S n)) =
                        (rtu_reset rtu_init, [m; m] ++ concat (repeat [m; m] n), FOk :: repeat FOk n)).
  { intros n. cbn [repeat rtu_feed]. rewrite H0. erewrite rtu_feed_repeat by exact H1. reflexivity. }
  cbn [map]. rewrite !H. split; reflexivity.
Qed.
Print Assumptions C11_rtu_no_backlog_fixed.
