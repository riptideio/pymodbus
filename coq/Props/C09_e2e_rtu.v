(* END-TO-END composition for the SERIAL server path with RTU framing.

   Model side — [rtu_server_run sk cfg l chunks] (theories/EndToEndSerial.v): the loop of the threaded serial
   handler (as for ASCII) around FrRtu.rtu_recv with the GENERATED server frame-size table
   (GenFramerB.server_decoder) and the Pdu model's ServerDecoder, the callback of EndToEnd.v, FrRtu.rtu_build for
   the response.  The RTU framer development has its own types; [rtu_dec], [rtu_fcfg], [rtu_delivery],
   [rtu_recv_h] are the adapters.
   Spec side — the byte stream is the concatenation of [req_adu_rtu q] = unit, PDU, CRC-16 low byte first;
   [spec_run_g rtu_adu] answers every request to a served unit with the RTU ADU of the response of
   ExecSpec.spec_exec and ignores every other frame.

   [rtu_item_ok]: a request message FC 1-6/15/16/22/23 whose fields fit, to a served unit or to a unit the filter
   rejects (skipped).  Unlike ASCII a rejected frame cannot be arbitrary: RTU frames are not delimited, the
   receiver needs the frame-size rule of the function code even to skip a frame (unassigned codes are therefore
   excluded too).  EVERY division of the byte stream into reads, empty and one-byte reads included. *)
From PM.theories Require Import Base Expr Struct FrBaseA FrSpecA PduCls PduSpec Pdu Store Exec ExecSpec Server
                                EndToEnd EndToEndSerial CorrE2E CorrE2ESerial.
From PM.theories Require FrBCommon FrRtu FrSpecB.
From PM.Generated Require GenStore GenExec GenServer GenFramerB.
From PM.proofs Require Import Exec_proofs Server_proofs EndToEnd_adapt_proofs EndToEnd_spec_proofs EndToEnd_proofs
                              EndToEndSerial_proofs EndToEndRtu_proofs.
From PM.proofs Require FrB_rtu_proofs.
From PM.Props Require C09_e2e C09_e2e_ascii.
Open Scope string_scope.
Open Scope list_scope.
Open Scope Z_scope.

Theorem C09_e2e_rtu : forall sk cfg (l : units slavectx) (su : sunits) (qs : list e2e_req) (chunks : list bytes),
  In sk serial_fes ->                                     (* the generated skeleton sync_serial *)
  units_rel l su ->                                       (* stores abstract to su; C04 invariant; 16-bit cells *)
  Forall (rtu_item_ok sk cfg (u_keys slavectx l) (framer_cfg sk cfg l)) qs ->
  concat chunks = concat (map req_adu_rtu qs) ->          (* ANY division of the byte stream into reads *)
  exists l' st',
    rtu_server_run sk cfg l chunks = result l' (snd (spec_run_g rtu_adu (cf_single cfg) su qs)) st' /\
    units_rel l' (fst (spec_run_g rtu_adu (cf_single cfg) su qs)).
Proof.
  intros sk cfg l su qs chunks Hsk Hrel Hok Hcat. pose proof (serial_fe_ok sk Hsk) as Hfe.
  assert (Hitems : Forall (item_ok KAscii sk cfg (u_keys slavectx l) (framer_cfg sk cfg l)) qs).
  { eapply Forall_impl; [|exact Hok]. intros q. apply rtu_item_item. }
  (* in the framing-independent core [KAscii] stands for any serial framing: a delivery carries a unit id and no
     transaction / protocol id, which is all the core looks at *)
  destruct (stream_spec_g KAscii packet_rtu rtu_adu sk cfg _ _ rtu_pk_ok Hfe (fun q H => proj1 H) qs l su eq_refl Hrel Hitems)
    as (l' & Hall & Hrel' & _).
  destruct (feed_rtu (framer_cfg sk cfg l) qs chunks) as (st' & Hfeed); [|exact Hcat|].
  { eapply Forall_impl; [|exact Hok]. intros q Hq. split; [apply Hq|exact (rtu_item_vf sk cfg _ q Hq)]. }
  exists l', st'. split; [|exact Hrel']. exact (run_serial_handle _ packet_rtu sk cfg (proj1 Hfe) _ _ _ _ _ _ _ Hfeed Hall).
Qed.
Print Assumptions C09_e2e_rtu.

(* the RTU half's unit filter is the filter of the socket/ASCII half ([c_single c = Some b] is not used by the proof) *)
Theorem C09_e2e_rtu_filter : forall c uid b, c_single c = Some b ->
  FrBCommon.validate_unit (rtu_fcfg c) (Some uid) = Ok (spec_accepts KAscii c uid).
Proof. intros c uid b _. apply rtu_validate. Qed.
Print Assumptions C09_e2e_rtu_filter.

Theorem C09_e2e_rtu_request_size : forall m w u, wreq_of_msg m = Some w -> spec_wf m = true -> wfb (u :: spec_pdu m) = true ->
  exists fc data, spec_pdu m = fc :: data /\
    FrB_rtu_proofs.simple_rule (FrBCommon.lookup_rule GenFramerB.server_decoder (FrBCommon.zb fc)) = true /\
    FrBCommon.frame_size (FrBCommon.lookup_rule GenFramerB.server_decoder (FrBCommon.zb fc)) (FrSpecB.spec_adu_rtu u (spec_pdu m))
      = Ok (FrBCommon.zlen (FrSpecB.spec_adu_rtu u (spec_pdu m))).
Proof. intros m w u Hw Hwf. exact (rtu_request_size m w Hw Hwf u). Qed.
Print Assumptions C09_e2e_rtu_request_size.

Theorem C09_e2e_rtu_packet : pk_ok packet_rtu rtu_adu (fun q => spec_delivery KAscii (frame_of q)).
Proof. exact rtu_pk_ok. Qed.
Print Assumptions C09_e2e_rtu_packet.

(* non-vacuity: the stream of C09_e2e_ascii_nonvacuous in RTU framing, as two one-byte reads, an empty read, 9
   bytes (ending inside the frame for unit 9), the rest *)
Definition nvr_stream : bytes := concat (map req_adu_rtu C09_e2e_ascii.nva_reqs).
Definition nvr_chunks : list bytes :=
  [firstn 1 nvr_stream; firstn 1 (skipn 1 nvr_stream); []; firstn 9 (skipn 2 nvr_stream); skipn 11 nvr_stream].

Example C09_e2e_rtu_nonvacuous :
  let sk := GenServer.sync_serial in let cfg := C09_e2e_ascii.nva_cfg in let l := C09_e2e_ascii.nva_units in
  Forall (rtu_item_ok sk cfg (u_keys slavectx l) (framer_cfg sk cfg l)) C09_e2e_ascii.nva_reqs /\
  concat nvr_chunks = concat (map req_adu_rtu C09_e2e_ascii.nva_reqs) /\
  nvr_stream = [1; 6; 0; 2; 18; 52; 37; 125;   9; 6; 0; 2; 0; 7; 104; 128;
                1; 3; 0; 1; 0; 3; 84; 11;      1; 1; 0; 8; 0; 3; 253; 201]%N /\
  e_out (rtu_server_run sk cfg l nvr_chunks) =
    [1; 6; 0; 2; 18; 52; 37; 125;                          (* echo of the write *)
     1; 3; 6; 0; 0; 18; 52; 0; 0; 101; 195;                (* registers 1..3 = 0, 0x1234, 0 *)
     1; 129; 2; 193; 145]%N /\                             (* exception 02 *)
  snd (spec_run_g rtu_adu false (abs_units l) C09_e2e_ascii.nva_reqs) = e_out (rtu_server_run sk cfg l nvr_chunks).
Proof.
  cbv zeta. split.
  { unfold C09_e2e_ascii.nva_reqs. repeat (apply Forall_cons || apply Forall_nil);
      (split; [cbn; lia|]; split; [reflexivity|]; split; [eexists; eexists; repeat split; reflexivity|]).
    (* the frame for unit 9 is rejected by the filter, the others are served *)
    2: (right; reflexivity).
    all: left; repeat split; cbn; try lia; tauto. }
  split; [vm_compute; reflexivity|]. split; [vm_compute; reflexivity|].
  pattern (rtu_server_run GenServer.sync_serial C09_e2e_ascii.nva_cfg C09_e2e_ascii.nva_units nvr_chunks). vm_compute. split; reflexivity.
Qed.
