(* Props/C09.v — Server sends exactly one matching response per accepted request.
   Each theorem is `exact` or a short derivation from proofs/Server_proofs.v.  All are about
   [Server.respond]/[Server.serve] on the handler skeletons that gen/gen_server.py regenerates from server/sync.py,
   server/async_io.py and server/asynchronous.py on every run ([GenServer.frontends]).  Quantification: any store
   type [S], any request list, any transaction/unit id and function code (unbounded Z), any hosted set, every flag
   combination, any effect [rq_exec] (including one that raises).
   [all_fes] = all seven skeletons; [bcast_fes] = the five that have broadcast_enable;
   [gated_fes] = the six whose send() tests should_respond. *)
From PM.theories Require Import Base Server.
From PM.Generated Require Import GenServer.
From PM.proofs Require Import Server_proofs.
Open Scope list_scope.
Open Scope Z_scope.

Theorem C09_at_most_one : forall S sk, In sk all_fes -> forall cfg (l : units S) (rq : dreq S),
  snd (respond S code sk cfg l rq) = None /\ (length (outs_of S sk cfg l rq) <= 1)%nat.
Proof. exact c09_at_most_one. Qed.
Print Assumptions C09_at_most_one.

(* what is sent: per request, in request order, on the stores the predecessors left behind — nothing else *)
Theorem C09_one_response : forall S sk, In sk all_fes -> forall cfg (rqs : list (dreq S)) (l : units S),
  snd (serve S code sk cfg l rqs) = None /\
  snd (fst (serve S code sk cfg l rqs)) =
    concat (map (fun p => outs_of S sk cfg (fst p) (snd p)) (combine (states S sk cfg l rqs) rqs)).
Proof.
  intros S sk Hin cfg rqs. induction rqs as [|rq t IH]; intros l; [now split|].
  rewrite (serve_cons S sk Hin). cbn [states combine map concat fst snd].
  destruct (IH (fst (fst (respond S code sk cfg l rq)))) as [IH1 IH2].
  destruct (serve S code sk cfg _ t) as [[l2 o2] e2]. cbn [fst snd] in *. now subst.
Qed.
Print Assumptions C09_one_response.

(* a hosted unit that answers, or whose datastore fails: the returned message, or exception 04 *)
Theorem C09_responds : forall S sk, In sk all_fes -> forall cfg (l : units S) (rq : dreq S) s,
  is_bcast S sk cfg rq = false -> u_get S l (ctx_key code cfg (rq_uid rq)) = Some s ->
  match snd (rq_exec rq s) with Ok r => rs_respond r = true | Raise e => e <> NoSuchSlaveExc end ->
  outs_of S sk cfg l rq =
    [the_out S rq (match snd (rq_exec rq s) with Ok r => r | Raise _ => exc_of S rq 4 end)].
Proof. intros S sk H cfg l rq s Hb Hs Hr. unfold outs_of. rewrite (respond_spec S sk H). now apply spec_responds. Qed.
Print Assumptions C09_responds.

Theorem C09_echo : forall S sk, In sk all_fes -> forall cfg (l : units S) (rq : dreq S) o,
  In o (outs_of S sk cfg l rq) ->
  o_tid o = rq_tid rq /\ o_uid o = rq_uid rq /\ o_dest o = rq_dest rq /\
  ((o_fc o = Z.lor (rq_fc rq) 128 /\ (o_code o = Some 11 \/ o_code o = Some 4)) \/
   exists s s' r, rq_exec rq s = (s', Ok r) /\ o_fc o = rs_fc r /\ o_code o = rs_code r).
Proof. intros S sk H cfg l rq o. unfold outs_of. rewrite (respond_spec S sk H). apply spec_echo. Qed.
Print Assumptions C09_echo.

Theorem C09_echo_fc : forall S sk, In sk all_fes -> forall cfg (l : units S) (rq : dreq S) o,
  (forall s s' r, rq_exec rq s = (s', Ok r) -> rs_fc r = rq_fc rq \/ rs_fc r = Z.lor (rq_fc rq) 128) ->
  In o (outs_of S sk cfg l rq) -> o_fc o = rq_fc rq \/ o_fc o = Z.lor (rq_fc rq) 128.
Proof.
  intros S sk H cfg l rq o Hwf Hin.
  destruct (C09_echo S sk H cfg l rq o Hin) as (_ & _ & _ & [[Hf _]|(s & s' & r & He & -> & _)]); [now right|].
  exact (Hwf s s' r He).
Qed.
Print Assumptions C09_echo_fc.

Theorem C09_silence_broadcast : forall S sk, In sk bcast_fes -> forall cfg (l : units S) (rq : dreq S),
  cf_bcast cfg = true -> rq_uid rq = 0 -> outs_of S sk cfg l rq = [].
Proof.
  intros S sk H cfg l rq Hb Hu. unfold outs_of.
  now rewrite (respond_spec_bcast S sk H), spec_respond_bcast by now apply sp_bcast_unit0.
Qed.
Print Assumptions C09_silence_broadcast.

Theorem C09_silence_missing : forall S sk, In sk all_fes -> forall cfg (l : units S) (rq : dreq S),
  is_bcast S sk cfg rq = false -> u_get S l (ctx_key code cfg (rq_uid rq)) = None -> cf_ignore cfg = true ->
  respond S code sk cfg l rq = (l, [], None).
Proof.
  intros S sk H cfg l rq Hb Hm Hi. rewrite (respond_absent S sk H cfg l rq Hb Hm).
  unfold missing_outs. now rewrite Hi.
Qed.
Print Assumptions C09_silence_missing.

(* 11 = GatewayNoResponse *)
Theorem C09_missing_answer : forall S sk, In sk all_fes -> forall cfg (l : units S) (rq : dreq S),
  is_bcast S sk cfg rq = false -> u_get S l (ctx_key code cfg (rq_uid rq)) = None -> cf_ignore cfg = false ->
  respond S code sk cfg l rq = (l, [the_out S rq (exc_of S rq 11)], None).
Proof.
  intros S sk H cfg l rq Hb Hm Hi. rewrite (respond_absent S sk H cfg l rq Hb Hm).
  unfold missing_outs. now rewrite Hi.
Qed.
Print Assumptions C09_missing_answer.

Theorem C09_silence_listen_only : forall S sk, In sk gated_fes -> forall cfg (l : units S) (rq : dreq S) s s' r,
  is_bcast S sk cfg rq = false -> u_get S l (ctx_key code cfg (rq_uid rq)) = Some s ->
  rq_exec rq s = (s', Ok r) -> rs_respond r = false -> outs_of S sk cfg l rq = [].
Proof.
  intros S sk H cfg l rq s s' r Hb Hs He Hr. apply gated_fes_iff in H as [H Hg].
  unfold outs_of. rewrite (respond_spec S sk H), Hg. now apply (spec_silence_listen_only S _ cfg l rq s s' r).
Qed.
Print Assumptions C09_silence_listen_only.

(* the same statement for ALL front-ends is false: Twisted UDP's _send has no should_respond test *)
Definition C09_silence_full_statement : Prop :=
  forall S sk, In sk all_fes -> forall cfg (l : units S) (rq : dreq S) s s' r,
  is_bcast S sk cfg rq = false -> u_get S l (ctx_key code cfg (rq_uid rq)) = Some s ->
  rq_exec rq s = (s', Ok r) -> rs_respond r = false -> outs_of S sk cfg l rq = [].

Theorem C09_silence_twisted_udp_refuted : ~ C09_silence_full_statement.
Proof. exact c09_silence_refuted. Qed.
Print Assumptions C09_silence_twisted_udp_refuted.

(* the second hypothesis: request.execute returns no listen-only response *)
Theorem C09_twisted_udp_like_asyncio_udp : forall S cfg (l : units S) (rq : dreq S),
  cf_bcast cfg = false ->
  (forall s, match snd (rq_exec rq s) with Ok r => rs_respond r = true | Raise _ => True end) ->
  respond S code tw_udp cfg l rq = respond S code aio_udp cfg l rq.
Proof.
  intros S cfg l rq Hb Hr. change tw_udp with (fe_skel false false). change aio_udp with (fe_skel true true).
  rewrite !respond_fe_skel.
  assert (Hb' : forall hb, sp_bcast S hb cfg rq = false) by (intros; unfold sp_bcast; now rewrite Hb, andb_false_r).
  destruct (u_get S l (ctx_key code cfg (rq_uid rq))) as [s|] eqn:Hs.
  - rewrite !(spec_respond_hosted S _ _ _ _ _ s (Hb' _) Hs). specialize (Hr s).
    destruct (snd (rq_exec rq s)); [|reflexivity]. unfold send_of. now rewrite Hr.
  - now rewrite !spec_respond_absent.
Qed.
Print Assumptions C09_twisted_udp_like_asyncio_udp.

Theorem C09_no_spontaneous : forall S sk cfg (l : units S), serve S code sk cfg l [] = (l, [], None).
Proof. reflexivity. Qed.
Print Assumptions C09_no_spontaneous.

Theorem C09_no_surplus : forall S sk, In sk all_fes -> forall cfg (rqs : list (dreq S)) (l : units S),
  (length (snd (fst (serve S code sk cfg l rqs))) <= length rqs)%nat.
Proof.
  intros S sk Hin cfg rqs. induction rqs as [|rq t IH]; intros l; [cbn; lia|].
  rewrite (serve_cons S sk Hin). specialize (IH (fst (fst (respond S code sk cfg l rq)))).
  destruct (C09_at_most_one S sk Hin cfg l rq) as [_ H1].
  destruct (serve S code sk cfg _ t) as [[l2 o2] e2]. cbn [fst snd length] in *. rewrite app_length. lia.
Qed.
Print Assumptions C09_no_surplus.

(* a run on the generated sync TCP skeleton: a write to hosted unit 1, absent unit 9, listen-only to unit 2 *)
Example C09_nonvacuous :
  let cfg := {| cf_single := false; cf_bcast := true; cf_ignore := false |} in
  let mk tid uid fc resp := {| rq_tid := tid; rq_uid := uid; rq_fc := fc; rq_dest := 0;
       rq_exec := fun s : Z => (s + 1, Ok {| rs_fc := fc; rs_respond := resp; rs_code := None |}) |} in
  In sync_tcp all_fes /\ In sync_tcp bcast_fes /\ In sync_tcp gated_fes /\
  serve Z code sync_tcp cfg [(1, 10); (2, 20)] [mk 4660 1 6 true; mk 7 9 3 true; mk 8 2 8 false] =
    ([(1, 11); (2, 21)],
     [{| o_tid := 4660; o_uid := 1; o_fc := 6; o_code := None; o_dest := 0 |};
      {| o_tid := 7; o_uid := 9; o_fc := 131; o_code := Some 11; o_dest := 0 |}], None).
Proof. vm_compute. repeat split; tauto. Qed.
