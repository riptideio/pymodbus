(* C18 — Datastore blocks and contexts address exactly their cells.
   Statements, each closed by [exact] of a lemma of proofs/Store_proofs.v / StoreHist_proofs.v or by a
   few lines from those.  All are about [GenStore.code], the record the translator regenerates from
   pymodbus/datastore/{store,context}.py, interfaces.py and constants.py on every run.  Addresses,
   counts and values are unbounded [Z]; list lengths and key sets are arbitrary. *)
From PM.theories Require Import Base Expr Store.
From PM.Generated Require Import GenStore.
From PM.theories Require Import CorrStore.
From PM.proofs Require Import Store_proofs StoreHist_proofs.
Open Scope list_scope.
Open Scope Z_scope.

(* a range is accepted exactly when all its cells are populated *)
Theorem C18_seq_validate : forall b a c, 1 <= c ->
  (seq_validate code b a c = true <-> forall i, 0 <= i < c -> seq_populated b (a + i)).
Proof. exact seq_validate_cells. Qed.
Print Assumptions C18_seq_validate.

Theorem C18_seq_get_length : forall b a c,
  seq_validate code b a c = true -> 0 <= c -> Z.of_nat (length (seq_get code b a c)) = c.
Proof.
  intros b a c Hv Hc. destruct (seq_valid_offset b a c Hv Hc) as (s & n & -> & -> & H).
  rewrite seq_get_at, firstn_length_le by (rewrite ?skipn_length; lia). reflexivity.
Qed.
Print Assumptions C18_seq_get_length.

Theorem C18_seq_get : forall b a c i,
  seq_validate code b a c = true -> 0 <= i < c ->
  nth_error (seq_get code b a c) (Z.to_nat i) = seq_cell b (a + i).
Proof. exact seq_get_nth. Qed.
Print Assumptions C18_seq_get.

(* an accepted write of n values changes exactly those n cells *)
Theorem C18_seq_set : forall b a vs k,
  seq_validate code b a (Z.of_nat (length vs)) = true ->
  seq_cell (seq_set code b a vs) k =
    if (a <=? k) && (k <? a + Z.of_nat (length vs))
    then nth_error vs (Z.to_nat (k - a)) else seq_cell b k.
Proof. exact seq_set_cells. Qed.
Print Assumptions C18_seq_set.

Theorem C18_seq_set_extent : forall b a vs,
  seq_validate code b a (Z.of_nat (length vs)) = true ->
  sb_addr (seq_set code b a vs) = sb_addr b /\
  length (sb_vals (seq_set code b a vs)) = length (sb_vals b) /\
  sb_def (seq_set code b a vs) = sb_def b.
Proof. exact seq_set_extent. Qed.
Print Assumptions C18_seq_set_extent.

Theorem C18_seq_read_your_write : forall b a vs i,
  seq_validate code b a (Z.of_nat (length vs)) = true -> (i < length vs)%nat ->
  nth_error (seq_get code (seq_set code b a vs) a (Z.of_nat (length vs))) i = nth_error vs i.
Proof.
  intros b a vs i Hv Hi.
  assert (Hv' : seq_validate code (seq_set code b a vs) a (Z.of_nat (length vs)) = true).
  { pose proof (seq_set_extent b a vs Hv) as (Ha & Hl & _).
    rewrite seq_validate_arith in *. unfold seq_len in *. rewrite Ha, Hl. exact Hv. }
  rewrite <- (Nat2Z.id i) at 1.
  rewrite seq_get_nth, seq_set_cells by (assumption || lia).
  replace ((a <=? a + Z.of_nat i) && (a + Z.of_nat i <? a + Z.of_nat (length vs))) with true by lia.
  replace (a + Z.of_nat i - a) with (Z.of_nat i) by lia. rewrite Nat2Z.id. reflexivity.
Qed.
Print Assumptions C18_seq_read_your_write.

Theorem C18_seq_reset : forall b k,
  seq_cell (seq_reset b) k = match seq_cell b k with Some _ => Some (sb_def b) | None => None end.
Proof.
  intros b k. unfold seq_cell, seq_reset, seq_len. cbn [sb_addr sb_vals sb_def]. rewrite map_length.
  destruct ((sb_addr b <=? k) && (k <? sb_addr b + Z.of_nat (length (sb_vals b)))); [|reflexivity].
  rewrite nth_error_map. destruct (nth_error (sb_vals b) _); reflexivity.
Qed.
Print Assumptions C18_seq_reset.

Theorem C18_sparse_validate : forall b a c, 1 <= c ->
  (sp_validate code b a c = true <-> forall i, 0 <= i < c -> sp_cell b (a + i) <> None).
Proof. exact sp_validate_cells. Qed.
Print Assumptions C18_sparse_validate.

Theorem C18_sparse_get : forall b a c,
  sp_validate code b a c = true -> 1 <= c ->
  exists vs, sp_get code b a c = Ok vs /\ map Some vs = map (sp_cell b) (zrange a (Z.to_nat c)).
Proof. intros b a c H _. exact (sp_get_cells b a c H). Qed.
Print Assumptions C18_sparse_get.

Theorem C18_sparse_set : forall b a vs k,
  sp_cell (sp_set code b a vs) k =
    if (a <=? k) && (k <? a + Z.of_nat (length vs))
    then nth_error vs (Z.to_nat (k - a)) else sp_cell b k.
Proof. exact sp_set_cells. Qed.
Print Assumptions C18_sparse_set.

Theorem C18_sparse_set_extent : forall b a vs,
  vs <> [] -> sp_validate code b a (Z.of_nat (length vs)) = true ->
  map fst (sp_vals (sp_set code b a vs)) = map fst (sp_vals b).
Proof. intros b a vs _. apply sp_set_extent. Qed.
Print Assumptions C18_sparse_set_extent.

Theorem C18_sparse_reset : forall b k,
  sp_cell (sp_reset b) k = match sp_cell b k with Some _ => Some (sp_def b) | None => None end.
Proof.
  intros b k. unfold sp_cell, sp_reset. cbn [sp_vals sp_def].
  induction (sp_vals b) as [|[k0 v0] d IH]; cbn [map d_get fst]; [reflexivity|].
  destruct (k0 =? k); [reflexivity|exact IH].
Qed.
Print Assumptions C18_sparse_reset.

(* slave context: one-based offset unless zero-mode *)

Theorem C18_offset_validate : forall x fx a c,
  cx_validate code x fx a c =
    (do i <- cx_block_idx code x fx; Ok (blk_validate code (nth_block x i) (a + cx_off x) c)).
Proof. exact cx_validate_offset. Qed.
Print Assumptions C18_offset_validate.

Theorem C18_offset_get : forall x fx a c,
  cx_get code x fx a c =
    (do i <- cx_block_idx code x fx; blk_get code (nth_block x i) (a + cx_off x) c).
Proof. exact cx_get_offset. Qed.
Print Assumptions C18_offset_get.

Theorem C18_offset_set : forall x fx a vs,
  cx_set code x fx a vs =
    (do i <- cx_block_idx code x fx;
     Ok {| cx_zero := cx_zero x; cx_slots := cx_slots x;
           cx_blocks := set_nth (cx_blocks x) i (blk_set code (nth_block x i) (a + cx_off x) vs) |}).
Proof. exact cx_set_offset. Qed.
Print Assumptions C18_offset_set.

Theorem C18_fx_mapper :
  c_fx_mapper code =
    [(1, "c"); (2, "d"); (3, "h"); (4, "i"); (5, "c"); (6, "h"); (15, "c"); (16, "h"); (22, "h"); (23, "h")]%string.
Proof. reflexivity. Qed.
Print Assumptions C18_fx_mapper.

Theorem C18_server_single : forall s u,
  sv_single s = true -> sv_getitem code s u = sv_getitem code s 0.
Proof. intros s u H. unfold sv_getitem, sv_key. rewrite H. reflexivity. Qed.
Print Assumptions C18_server_single.

Theorem C18_server_multi : forall s u,
  sv_single s = false ->
  sv_getitem code s u = match assoc_z (sv_slaves s) u with Some c => Ok c | None => Raise NoSuchSlaveExc end.
Proof. intros s u H. unfold sv_getitem, sv_key. rewrite H. reflexivity. Qed.
Print Assumptions C18_server_multi.

Theorem C18_server_register_range : forall s u c,
  sv_single s = false ->
  sv_setitem code s u c =
    if (0 <=? u) && (u <=? 247)
    then Ok {| sv_single := false; sv_slaves := az_set (sv_slaves s) u c |}
    else Raise NoSuchSlaveExc.
Proof. exact sv_setitem_range. Qed.
Print Assumptions C18_server_register_range.

Theorem C18_server_set_get : forall s u c s' v,
  sv_single s = false -> sv_setitem code s u c = Ok s' ->
  sv_getitem code s' v = if u =? v then Ok c else sv_getitem code s v.
Proof.
  intros s u c s' v Hs H. rewrite sv_setitem_range in H by exact Hs.
  destruct ((0 <=? u) && (u <=? 247)); [|discriminate]. injection H as <-.
  unfold sv_getitem, sv_key. cbn [sv_single sv_slaves]. rewrite Hs, assoc_az_set.
  destruct (u =? v); reflexivity.
Qed.
Print Assumptions C18_server_set_get.

(* defaults: no zero_mode keyword = one-based addressing; default tables hold 0..65535 *)

Theorem C18_default_one_based : default_zero_mode code = false.
Proof. reflexivity. Qed.
Print Assumptions C18_default_one_based.

Theorem C18_default_block_extent : forall k,
  blk_validate code (default_block code) k 1 = true <-> 0 <= k < 65536.
Proof.
  intros k. unfold default_block. cbn [blk_validate]. rewrite seq_validate_arith.
  unfold seq_len. cbn [sb_addr sb_vals c_create_addr c_create_size code]. rewrite repeat_length. lia.
Qed.
Print Assumptions C18_default_block_extent.

(* All histories.  For every block whose key set has no duplicates (always true of a Python dict;
   automatic for sequential blocks) and every sequence of validate/get/set/reset/iterate operations, the
   model's outputs satisfy the abstract-map oracle [prop_block] — the executable oracle the correspondence
   check applies to the real classes: validate = "all cells populated", an accepted read returns the cells
   in address order, an accepted write updates exactly those cells, reset keeps the key set, iteration
   lists exactly the cells. *)
Theorem C18_histories : forall ops b,
  keys_ok b -> dict_ok b ops = true ->
  prop_block (blk_default b) (blk_iter b) ops (run_block code b ops) = true.
Proof. exact model_satisfies_oracle. Qed.
Print Assumptions C18_histories.

(* [dict_ok]: the dictionary form setValues(_, {k: v}) is modelled for sparse blocks only; list and
   scalar writes, validate, read, reset and iteration are covered for both kinds of block *)
Theorem C18_histories_sequential : forall ops s,
  forallb (fun o => negb (is_dict_op o)) ops = true ->
  prop_block (sb_def s) (seq_iter s) ops (run_block code (BSeq s) ops) = true.
Proof.
  intros ops s H. apply (model_satisfies_oracle ops (BSeq s)); [apply seq_iter_nodup | exact H].
Qed.
Print Assumptions C18_histories_sequential.

Example C18_nonvacuous :
  let b := {| sb_addr := 5; sb_vals := [10; 11; 12; 13]; sb_def := 0 |} in
  seq_validate code b 6 3 = true /\ seq_validate code b 6 4 = false /\
  seq_get code b 6 3 = [11; 12; 13] /\
  sb_vals (seq_set code b 7 [1; 2]) = [10; 11; 1; 2] /\
  let s := {| sp_vals := [(3, 7); (4, 8); (9, 1)]; sp_def := 0 |} in
  sp_validate code s 3 2 = true /\ sp_validate code s 4 2 = false /\
  sp_get code s 3 2 = Ok [7; 8].
Proof. vm_compute. repeat split. Qed.
