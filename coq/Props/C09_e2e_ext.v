(* The end-to-end composition EXTENDED by the request classes that do not touch the datastore; C09_e2e_tcp,
   C09_e2e_ascii, C09_e2e_rtu state the same for the server without the control block.

   Server state = (hosted datastores, control block): theories/EndToEndExt.v plugs ExecOther.serve_other (the
   execute() scripts of FC 7, 8, 11, 12, 17, 20, 21, 24 regenerated into GenExecOther.code, over the
   ModbusControlBlock record of Device.v) into the callback of EndToEnd.v; the control block is ONE process-wide
   object shared by all units.
   Spec side = theories/CorrE2EExt.v: (abstract data model per unit, ONE abstract station); [spec_run_x] answers a
   data-access request with ExecSpec.spec_exec on the addressed unit and a station request with
   ExecOtherSpec.spec_other on the station (whose eight exception-status outputs are this device's choice
   [station_status]); Force Listen Only Mode gets no response.

   [req_ok_x]: a request of C09_e2e_tcp's domain, or a station request of the region in which C04_other_refines is
   proved: FC 7, 11, 12, 17; FC 8 sub-functions 00, 03, 04, 0A-12, 14 with one 16-bit data word.  [dev_ok] (part of
   [xrel]): nine 16-bit counters, sixteen flags, comm event counter 0 and empty event log (a server whose
   application logs no events; preserved by every request of the domain), a server id that fits its field. *)
From PM.theories Require Import Base Expr Struct FrBaseA FrTcp FrSpecA Lrc FrAscii PduCls PduSpec Pdu Store Exec ExecSpec
                                Device ExecOther ExecOtherSpec ExecOtherView Server
                                EndToEnd EndToEndSerial EndToEndExt CorrE2E CorrE2ESerial CorrE2EExt.
From PM.Generated Require Import GenFramerA.
From PM.Generated Require GenStore GenExec GenExecOther GenServer.
From PM.theories Require FrBCommon FrRtu FrSpecB.
From PM.Generated Require GenFramerB.
From PM.proofs Require Import Exec_proofs Server_proofs ExecOther_proofs EndToEnd_adapt_proofs EndToEnd_spec_proofs EndToEnd_proofs
                              EndToEndSerial_proofs EndToEndRtu_proofs EndToEndExt_proofs EndToEndRtuExt_proofs.
From PM.proofs Require FrB_rtu_proofs.
From PM.Props Require C09_e2e.
Open Scope string_scope.
Open Scope list_scope.
Open Scope Z_scope.

Theorem C09_e2e_tcp_ext : forall sk cfg eof (x : xstate) (st : sstate) (qs : list e2e_req) (chunks : list bytes),
  In sk tcp_fes_x ->                                  (* generated skeletons sync_tcp, aio_tcp *)
  xrel x st ->                                        (* stores abstract to the units of st, control block to its station *)
  Forall (req_ok_x sk cfg (x_keys x)) qs ->
  concat (eff_chunks eof chunks) = concat (map req_adu qs) ->        (* ANY division into reads *)
  exists x' fs',
    tcp_server_run_x sk cfg eof x chunks = result x' (snd (spec_run_x tcp_adu (cf_single cfg) st qs)) fs' /\
    xrel x' (fst (spec_run_x tcp_adu (cf_single cfg) st qs)).
Proof.
  intros sk cfg eof x st qs chunks Hsk Hrel Hok Hcat. pose proof (tcp_fe_ok sk (tcp_fes_x_tcp sk Hsk)) as Hfe.
  set (fc := unit_cfg sk cfg (x_keys x)).
  assert (Hitems : Forall (item_ok_x KTcp sk cfg (x_keys x) fc) qs).
  { eapply Forall_impl; [|exact Hok]. intros q Hq. left. split; [exact Hq|left; reflexivity]. }
  destruct (stream_spec_x KTcp packet_of tcp_adu sk cfg _ _ tcp_pk_ok Hfe (fun q H => proj1 H) qs x st eq_refl Hrel Hitems)
    as (x' & Hall & Hrel' & _).
  destruct (feed_tcp fc qs (eff_chunks eof chunks) (frames_x KTcp sk cfg _ fc qs (or_introl eq_refl) Hitems) Hcat)
    as (fs' & Hfeed).
  exists x', fs'. split; [|exact Hrel'].
  eapply (run_reads_feed _ (handle_one_x packet_of sk cfg)); try reflexivity; [|exact Hfeed|exact Hall].
  intros s d s' b. apply handle_one_x_keys, Hfe.
Qed.
Print Assumptions C09_e2e_tcp_ext.

Theorem C09_e2e_ascii_ext : forall sk cfg (x : xstate) (st : sstate) (qs : list e2e_req) (chunks : list bytes),
  In sk serial_fes -> xrel x st ->
  Forall (item_ok_x KAscii sk cfg (x_keys x) (unit_cfg sk cfg (x_keys x))) qs ->
  concat chunks = concat (map req_adu_ascii qs) ->
  exists x' fs',
    ascii_server_run_x sk cfg x chunks = result x' (snd (spec_run_x ascii_adu (cf_single cfg) st qs)) fs' /\
    xrel x' (fst (spec_run_x ascii_adu (cf_single cfg) st qs)).
Proof.
  intros sk cfg x st qs chunks Hsk Hrel Hitems Hcat. pose proof (serial_fe_ok sk Hsk) as Hfe.
  destruct (stream_spec_x KAscii packet_ascii ascii_adu sk cfg _ _ ascii_pk_ok Hfe (fun q H => proj1 H) qs x st eq_refl Hrel Hitems)
    as (x' & Hall & Hrel' & _).
  destruct (feed_ascii _ qs chunks (frames_x KAscii sk cfg _ _ qs (or_intror eq_refl) Hitems) Hcat) as (fs' & Hfeed).
  exists x', fs'. split; [|exact Hrel'].
  exact (run_serial_handle_x _ packet_ascii sk cfg (proj1 Hfe) _ _ _ _ _ _ _ Hfeed Hall).
Qed.
Print Assumptions C09_e2e_ascii_ext.

(* C01 -> C04_other: a station request decodes to the object ExecOtherView.obj_of_wire names *)
Theorem C09_e2e_decode_station : forall m ow, owire_of_msg m = Some ow -> spec_wf m = true ->
  exists q, py_decode true (spec_pdu m) = Ok q /\ obj_of_wire ow = Some q.
Proof. exact decode_station. Qed.
Print Assumptions C09_e2e_decode_station.

(* C04_other -> C01: the response object stands for the spec message of the station's response (or is the silent
   listen-only response); the control block keeps its invariant and steps with the station *)
Theorem C09_e2e_station_step : forall dv sd ow q, dev_rel dv sd -> station_region ow -> obj_of_wire ow = Some q ->
  exists dv' r, e_serve_other dv q = Some (dv', r) /\ (exists rfc, obj_fc r = Ok rfc) /\ exc_code_of r = None /\
    dev_rel dv' (fst (spec_other_step sd ow)) /\
    match other_rsp_msg (snd (spec_other_step sd ow)) with
    | Some mr => obj_respond r = true /\ CorrPdu.abs r = Some mr /\
                 CorrPdu.mem_cls (class_of r) CorrPdu.conforming_encode = true /\
                 (length (spec_pdu mr) <= 300)%nat /\ wfb (spec_pdu mr) = true
    | None => obj_respond r = false
    end.
Proof.
  intros dv sd ow q Hd Hreg Hq.
  destruct (station_step_rel dv sd ow q Hd Hreg Hq) as (dv' & r & Hs & Hd' & Hfc & Hex & Hm). eauto 8.
Qed.
Print Assumptions C09_e2e_station_step.

(* a request is EITHER a data-access request OR a station request: the two execution models never overlap *)
Theorem C09_e2e_disjoint : forall dv o r, req_of_obj o = Some r -> e_serve_other dv o = None.
Proof. exact data_not_other. Qed.
Print Assumptions C09_e2e_disjoint.

(* framing-independent core of the extension (rejected frames interleaved; [k <> KTls] is not used by the proof) *)
Theorem C09_e2e_stream_ext : forall k pk adu, pk_ok pk adu (fun q => spec_delivery k (frame_of q)) ->
  forall sk cfg, fe_ok sk -> k <> KTls -> forall qs x st x0,
  x_keys x = x_keys x0 -> xrel x st ->
  Forall (item_ok_x k sk cfg (x_keys x0) (unit_cfg sk cfg (x_keys x0))) qs ->
  exists x', handle_all_x pk sk cfg x (ref_deliveries k (unit_cfg sk cfg (x_keys x0)) (map frame_of qs))
               = (x', snd (spec_run_x adu (cf_single cfg) st qs), None) /\
             xrel x' (fst (spec_run_x adu (cf_single cfg) st qs)) /\ x_keys x' = x_keys x0.
Proof.
  intros k pk adu Hpk sk cfg Hsk _ qs x st x0 Hk Hrel Hok.
  exact (stream_spec_x k pk adu sk cfg _ _ Hpk Hsk (fun q H => proj1 H) qs x st Hk Hrel Hok).
Qed.
Print Assumptions C09_e2e_stream_ext.

(* non-vacuity: single context, control block with BusMessage = 5 and SlaveMessage = 3; nine requests:
   write register, Return Bus Message Count (5), Read Exception Status (outputs 0 and 3 set: 9), Clear
   Counters (to unit 17), Return Bus Message Count (0), Force Listen Only Mode (NO response), Get Comm Event
   Log, Report Server ID ("Pymodbus", running), read the register back; cut 3 bytes into the first header. *)
Definition nvx_dev : device :=
  {| d_counters := [5; 0; 0; 3; 0; 0; 0; 0; 0]; d_diag := repeat false 16; d_events := []; d_listen := false;
     d_delim := [13%N]; d_plus := repeat 0 110; d_ident := [] |}.
Definition nvx_mk (t u : Z) (m : msg) : e2e_req := {| q_tid := t; q_pid := 0; q_uid := u; q_body := QMsg m |}.
Definition nvx_reqs : list e2e_req :=
  [nvx_mk 1 1 (MWriteRegReq 2 4660); nvx_mk 2 1 (MDiagReq 11 [0]); nvx_mk 3 1 MReadExcStatusReq;
   nvx_mk 4 17 (MDiagReq 10 [0]); nvx_mk 5 1 (MDiagReq 11 [0]); nvx_mk 6 1 (MDiagReq 4 [0]);
   nvx_mk 7 1 MCommEventLogReq; nvx_mk 8 1 MReportSlaveIdReq; nvx_mk 9 1 (MReadHoldingReq 2 1)].
Definition nvx_stream : bytes := concat (map req_adu nvx_reqs).
Definition nvx_chunks : list bytes := [firstn 3 nvx_stream; firstn 30 (skipn 3 nvx_stream); skipn 33 nvx_stream].
Definition nvx_x : xstate := {| x_units := [(0, C09_e2e.nv_ctx)]; x_dev := nvx_dev |}.

Example C09_e2e_ext_nonvacuous :
  let sk := GenServer.sync_tcp in let cfg := C09_e2e.nv_cfg in
  In sk tcp_fes_x /\ dev_ok nvx_dev /\
  Forall (req_ok_x sk cfg (x_keys nvx_x)) nvx_reqs /\
  concat (eff_chunks true nvx_chunks) = concat (map req_adu nvx_reqs) /\
  e_out (tcp_server_run_x sk cfg true nvx_x nvx_chunks) =
    [0; 1; 0; 0; 0; 6; 1; 6; 0; 2; 18; 52;                (* write echo *)
     0; 2; 0; 0; 0; 6; 1; 8; 0; 11; 0; 5;                 (* bus message count 5 *)
     0; 3; 0; 0; 0; 3; 1; 7; 9;                           (* exception status 0b00001001 *)
     0; 4; 0; 0; 0; 6; 17; 8; 0; 10; 0; 0;                (* clear counters, echoed *)
     0; 5; 0; 0; 0; 6; 1; 8; 0; 11; 0; 0;                 (* bus message count 0 *)
                                                          (* force listen only: silence *)
     0; 7; 0; 0; 0; 9; 1; 12; 6; 0; 0; 0; 0; 0; 0;        (* event log: status 0, counts 0, no events *)
     0; 8; 0; 0; 0; 12; 1; 17; 9; 80; 121; 109; 111; 100; 98; 117; 115; 255;   (* "Pymodbus", running *)
     0; 9; 0; 0; 0; 5; 1; 3; 2; 18; 52]%N /\              (* register 2 = 0x1234 *)
  snd (spec_run_x tcp_adu true {| ss_units := abs_units (x_units nvx_x); ss_dev := abs_dev nvx_dev |} nvx_reqs) =
    e_out (tcp_server_run_x sk cfg true nvx_x nvx_chunks) /\
  d_listen (x_dev (e_units (tcp_server_run_x sk cfg true nvx_x nvx_chunks))) = true.
Proof.
  cbv zeta. split; [cbv [tcp_fes_x]; cbn [In]; tauto|].
  split. { split; [split; reflexivity|]. split; [cbn [nvx_dev d_counters]; repeat (apply Forall_cons || apply Forall_nil); unfold u16v; lia|].
           split; [reflexivity|]. split; [reflexivity|]. split; [reflexivity|]. change (8 <= 254)%nat. lia. }
  split. { unfold nvx_reqs. repeat (apply Forall_cons || apply Forall_nil).
                      1,9: (left; repeat split; cbn; try lia; try tauto; eexists; cbn; repeat split; reflexivity).
           all: right; repeat split; cbn; try lia; try tauto; eexists; eexists; repeat split; try reflexivity;
                (left; reflexivity) || (right; reflexivity). }
  split; [vm_compute; reflexivity|].
  (* the server is run once *)
  pattern (tcp_server_run_x GenServer.sync_tcp C09_e2e.nv_cfg true nvx_x nvx_chunks). vm_compute. repeat split.
Qed.

(* RTU framing: [rtu_item_ok_x] = a data-access request message or a station request of the proved region, to a
   served unit or to one the filter rejects (skipped; the size rule a skipped frame needs is fixed for the station
   requests: 4 and 8 bytes in the generated table) *)
Theorem C09_e2e_rtu_ext : forall sk cfg (x : xstate) (st : sstate) (qs : list e2e_req) (chunks : list bytes),
  In sk serial_fes -> xrel x st ->
  Forall (rtu_item_ok_x sk cfg (x_keys x) (unit_cfg sk cfg (x_keys x))) qs ->
  concat chunks = concat (map req_adu_rtu qs) ->
  exists x' fs',
    rtu_server_run_x sk cfg x chunks = result x' (snd (spec_run_x rtu_adu (cf_single cfg) st qs)) fs' /\
    xrel x' (fst (spec_run_x rtu_adu (cf_single cfg) st qs)).
Proof.
  intros sk cfg x st qs chunks Hsk Hrel Hok Hcat. pose proof (serial_fe_ok sk Hsk) as Hfe.
  assert (Hitems : Forall (item_ok_x KAscii sk cfg (x_keys x) (unit_cfg sk cfg (x_keys x))) qs).
  { eapply Forall_impl; [|exact Hok]. intros q. apply rtu_item_item_x. }
  destruct (stream_spec_x KAscii packet_rtu rtu_adu sk cfg _ _ rtu_pk_ok Hfe (fun q H => proj1 H) qs x st eq_refl Hrel Hitems)
    as (x' & Hall & Hrel' & _).
  destruct (feed_rtu (unit_cfg sk cfg (x_keys x)) qs chunks) as (fs' & Hfeed); [|exact Hcat|].
  { eapply Forall_impl; [|exact Hok]. intros q Hq. split; [apply Hq|exact (rtu_item_vf_x sk cfg _ q Hq)]. }
  exists x', fs'. split; [|exact Hrel']. exact (run_serial_handle_x _ packet_rtu sk cfg (proj1 Hfe) _ _ _ _ _ _ _ Hfeed Hall).
Qed.
Print Assumptions C09_e2e_rtu_ext.

Theorem C09_e2e_rtu_station_size : forall m ow u, owire_of_msg m = Some ow -> spec_wf m = true -> wfb (u :: spec_pdu m) = true ->
  exists fc data, spec_pdu m = fc :: data /\
    FrB_rtu_proofs.simple_rule (FrBCommon.lookup_rule GenFramerB.server_decoder (FrBCommon.zb fc)) = true /\
    FrBCommon.frame_size (FrBCommon.lookup_rule GenFramerB.server_decoder (FrBCommon.zb fc)) (FrSpecB.spec_adu_rtu u (spec_pdu m))
      = Ok (FrBCommon.zlen (FrSpecB.spec_adu_rtu u (spec_pdu m))).
Proof. intros m ow u How Hwf. exact (rtu_station_size m ow How Hwf u). Qed.
Print Assumptions C09_e2e_rtu_station_size.

(* non-vacuity: the request list of C09_e2e_ext_nonvacuous over RTU, one byte per read for the first frame *)
Definition nvxr_stream : bytes := concat (map req_adu_rtu nvx_reqs).
Definition nvxr_chunks : list bytes := map (fun b => [b]) (firstn 8 nvxr_stream) ++ [[]; skipn 8 nvxr_stream].

Example C09_e2e_rtu_ext_nonvacuous :
  let sk := GenServer.sync_serial in let cfg := C09_e2e.nv_cfg in let x := nvx_x in
  Forall (rtu_item_ok_x sk cfg (x_keys x) (unit_cfg sk cfg (x_keys x))) nvx_reqs /\
  concat nvxr_chunks = concat (map req_adu_rtu nvx_reqs) /\
  snd (spec_run_x rtu_adu true {| ss_units := abs_units (x_units x); ss_dev := abs_dev (x_dev x) |} nvx_reqs) =
    e_out (rtu_server_run_x sk cfg x nvxr_chunks) /\
  length (e_out (rtu_server_run_x sk cfg x nvxr_chunks)) = 69%nat.
Proof.
  cbv zeta. split.
  { unfold nvx_reqs. repeat (apply Forall_cons || apply Forall_nil);
      (split; [cbn; lia|]; split; [reflexivity|]; split; [|left; repeat split; cbn; try lia; tauto]).
    1,9: (left; eexists; eexists; repeat split; reflexivity).
    all: right; eexists; eexists; repeat split; try reflexivity; (left; reflexivity) || (right; reflexivity). }
  split; [vm_compute; reflexivity|].
  pattern (rtu_server_run_x GenServer.sync_serial C09_e2e.nv_cfg nvx_x nvxr_chunks). vm_compute. split; reflexivity.
Qed.
