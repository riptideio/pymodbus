(* Props/C02.v — Encode/decode are mutual inverses and encoding is pure.
   The two long case analyses ([encode_pure], [decode_fresh]) are in proofs/Pdu_c02_proofs.v.
   Objects are values of [Pdu.obj]; a method that assigns attributes returns the new object:
   [encode_st o = (result, o')], [decode_into o data = Ok o'].  [fresh_like o] is a brand-new
   instance of o's class.  [abs o = Some m]: o stands for spec message m with every field within its
   wire width; field identity is stated on these messages ([msg_matches]: equal fields, read-bits
   lists up to the zero padding the wire carries).  All theorems quantify over all field values
   and list lengths. *)
From PM.theories Require Import Base Struct PduCls PduSpec Pdu CorrPdu.
From PM.Generated Require Import GenPdu.
From PM.proofs Require Import Pdu_proofs Pdu_more_proofs Pdu_dec_proofs Pdu_c02_proofs.
Open Scope string_scope.
Open Scope list_scope.
Open Scope Z_scope.

Theorem C02_layouts_symmetric : enc_layouts = dec_layouts.
Proof. reflexivity. Qed.
Print Assumptions C02_layouts_symmetric.

(* round trip for the conforming lists of C01: requests through the server decoder, responses and exception
   responses through the client decoder *)
Theorem C02_roundtrip : forall o m,
  abs o = Some m -> mem_cls (class_of o) conforming_encode = true -> conforming_decode m = true ->
  exists b o' d, py_pdu o = Ok b /\ py_decode (msg_is_request m) b = Ok o' /\ class_of o' = spec_class m /\
                 abs o' = Some d /\ msg_matches m d = true.
Proof.
  intros o m Ha Hc Hd. destruct (abs_inv o m Ha) as [_ Hwf].
  destruct (decode_conforms m Hwf Hd) as (o' & d & H1 & H0 & H2 & H3).
  exists (spec_pdu m), o', d. repeat split; try assumption. now apply encode_conforms.
Qed.
Print Assumptions C02_roundtrip.

Theorem C02_encode_pure : forall o b o1, encode_st o = (Ok b, o1) -> encode_st o1 = (Ok b, o1).
Proof. exact encode_pure. Qed.
Print Assumptions C02_encode_pure.

Theorem C02_encode_state : forall o b o1, encode_st o = (Ok b, o1) ->
  mem_cls (class_of o) [WriteMultipleCoilsRequest; ReadDeviceInformationResponse] = false -> o1 = o.
Proof.
  intros o b o1. destruct o; cbn [encode_st class_of]; intros H Hc; try discriminate Hc;
    try (injection H as _ <-; reflexivity).
  destruct (cls_eqb c ReadFileRecordRequest); [|destruct (cls_eqb c ReadFileRecordResponse)]; injection H as _ <-; reflexivity.
Qed.
Print Assumptions C02_encode_state.

Theorem C02_encode_state_coils : forall a vals bc b o1, encode_st (OWriteCoilsReq a vals bc) = (Ok b, o1) ->
  o1 = OWriteCoilsReq a vals ((zlen vals + 7) / 8).
Proof.
  intros a vals bc b o1. cbn [encode_st]. destruct (pk [FH; FH; FB] [a; zlen vals; (zlen vals + 7) / 8]); intros H; [injection H as _ <-; reflexivity|discriminate H].
Qed.
Print Assumptions C02_encode_state_coils.

(* hence decode . encode . decode . encode = decode . encode *)
Theorem C02_fixed_point : forall m, spec_wf m = true -> conforming_decode m = true ->
  exists o', py_decode (msg_is_request m) (spec_pdu m) = Ok o' /\ py_pdu o' = Ok (spec_pdu m).
Proof.
  intros m Hwf Hc. exists (obj_of_msg m). split; [now apply decode_spec|].
  rewrite <- spec_pdu_padded. apply encode_conforms; [|now apply abs_obj_of_msg].
  rewrite obj_class. now apply spec_class_conforming.
Qed.
Print Assumptions C02_fixed_point.

Theorem C02_decode_fresh : forall o data o',
  wf_shape o = true -> class_of o <> ReadWriteMultipleRegistersResponse ->
  decode_into o data = Ok o' ->
  exists f, decode_into (fresh_like o) data = Ok f /\ blank f = blank o'.
Proof. exact decode_fresh. Qed.
Print Assumptions C02_decode_fresh.

(* a decode that RAISES: [atomic_decode] lists the classes that assign nothing before the raising statement; for
   the others [decode_partial] (tied to the real classes by the call-history suite) says what is already assigned *)
Theorem C02_decode_raise_atomic : forall o data,
  wf_shape o = true -> mem_cls (class_of o) atomic_decode = true -> decode_partial o data = o.
Proof.
  intros o data Hs Hc. unfold wf_shape in Hs.
  destruct o; cbn [class_of] in Hc; try reflexivity; try (vm_compute in Hc; discriminate Hc);
    destruct c; try discriminate Hs; vm_compute in Hc; discriminate Hc.
Qed.
Print Assumptions C02_decode_raise_atomic.

Theorem C02_decode_partial_class : forall o data, class_of (decode_partial o data) = class_of o.
Proof.
  intros o data. destruct o; cbn [decode_partial]; try reflexivity;
    repeat match goal with
           | |- context [match ?x with _ => _ end] => destruct x; try reflexivity
           | |- context [if ?b then _ else _] => destruct b; try reflexivity
           end.
Qed.
Print Assumptions C02_decode_partial_class.

Theorem C02_decode_partial_registers : forall c regs data r,
  cls_eqb c ReadWriteMultipleRegistersResponse = false ->
  decode_into (ORegsRsp c regs) data = Ok r -> decode_partial (ORegsRsp c regs) data = r.
Proof.
  intros c regs data r Hc. cbn [decode_into decode_partial]. destruct (data0 data) as [bc|e]; [|discriminate]. cbn [bind]. rewrite Hc.
  destruct (read_words (skipn 1 data) (range_len 1 (bc + 1) 2)) as [ws|e] eqn:E; [|discriminate]. cbn [bind].
  intros H. injection H as <-. now rewrite (read_words_prefix_ok _ _ _ E).
Qed.
Print Assumptions C02_decode_partial_registers.

(* the full statement, false for pymodbus 2.4.0 (kept visible), and its refutations *)
Definition C02_full_statement : Prop :=
  (forall o m, abs o = Some m ->
     exists b o' d, py_pdu o = Ok b /\ py_decode (msg_is_request m) b = Ok o' /\ class_of o' = spec_class m /\
                    abs o' = Some d /\ msg_matches m d = true) /\
  (forall o data o', wf_shape o = true -> decode_into o data = Ok o' ->
     exists f, decode_into (fresh_like o) data = Ok f /\ blank f = blank o').

Theorem C02_decode_fresh_rwm_refuted :
  exists o data o', wf_shape o = true /\ decode_into o data = Ok o' /\
    forall f, decode_into (fresh_like o) data = Ok f -> blank f <> blank o'.
Proof.
  exists (ORegsRsp ReadWriteMultipleRegistersResponse [1; 2]), [4; 0; 1; 0; 2]%N,
         (ORegsRsp ReadWriteMultipleRegistersResponse [1; 2; 1; 2]).
  repeat split. intros f H. vm_compute in H. injection H as <-. discriminate.
Qed.
Print Assumptions C02_decode_fresh_rwm_refuted.

Theorem C02_fifo_roundtrip_refuted :
  exists o b o', class_of o = ReadFifoQueueResponse /\ py_pdu o = Ok b /\ py_decode false b = Ok o' /\ obj_match o o' = false.
Proof. exists (OFifoRsp [4660; 22136]). eexists. eexists. repeat split; vm_compute; reflexivity. Qed.
Print Assumptions C02_fifo_roundtrip_refuted.

Theorem C02_file_response_roundtrip_refuted :
  exists o b o', class_of o = ReadFileRecordResponse /\ py_pdu o = Ok b /\ py_decode false b = Ok o' /\ obj_match o o' = false.
Proof.
  exists (OFileRecs ReadFileRecordResponse [mk_frec 0 0 [13; 254; 0; 32]%N 2 5]). eexists. eexists.
  repeat split; vm_compute; reflexivity.
Qed.
Print Assumptions C02_file_response_roundtrip_refuted.

Theorem C02_slave_id_roundtrip_refuted :
  exists o b o', class_of o = ReportSlaveIdResponse /\ py_pdu o = Ok b /\ py_decode false b = Ok o' /\ obj_match o o' = false.
Proof.
  exists (OSlaveIdRsp [17; 34]%N true None). eexists. eexists. repeat split; vm_compute; reflexivity.
Qed.
Print Assumptions C02_slave_id_roundtrip_refuted.

Theorem C02_diag_request_roundtrip_refuted :
  exists o b, class_of o = ReturnQueryDataRequest /\ py_pdu o = Ok b /\ py_decode true b = Raise StructError.
Proof.
  exists (ODiag ReturnQueryDataRequest 0 (DList [1; 2])). eexists. repeat split; vm_compute; reflexivity.
Qed.
Print Assumptions C02_diag_request_roundtrip_refuted.

Example C02_nonvacuous :
  let o := ORWReq 3 6 14 [10; 11; 65535] 3 6 in
  abs o = Some (MReadWriteRegsReq 3 6 14 [10; 11; 65535]) /\
  mem_cls (class_of o) conforming_encode = true /\ conforming_decode (MReadWriteRegsReq 3 6 14 [10; 11; 65535]) = true /\
  py_decode true [23; 0; 3; 0; 6; 0; 14; 0; 3; 6; 0; 10; 0; 11; 255; 255]%N = Ok o /\
  wf_shape o = true /\
  encode_st (OWriteCoilsReq 1 [true; true; false] 77) = (Ok [0; 1; 0; 3; 1; 3]%N, OWriteCoilsReq 1 [true; true; false] 1).
Proof. repeat split; vm_compute; reflexivity. Qed.
