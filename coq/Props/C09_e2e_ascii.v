(* END-TO-END composition for the SERIAL server path with ASCII framing.

   Model side — [ascii_server_run sk cfg l chunks] (theories/EndToEndSerial.v): the loop of the threaded serial
   handler (ModbusSingleRequestHandler.handle: an empty read is skipped, the unit list and `single` are read from
   the live context at every read, an exception escaping the framer resets the frame and the loop goes on) around
   FrAscii.a_recv, the framing-independent callback of EndToEnd.v and FrAscii.a_build for the response.
   Spec side — the character stream is the concatenation of [req_adu_ascii q] = ':' , upper-case hex of unit, PDU,
   LRC , CR LF; [spec_run_g ascii_adu] answers every request to a served unit with the ASCII ADU of the response of
   ExecSpec.spec_exec on that unit's abstract state, and ignores every other frame.

   [item_ok]: a request of C09_e2e_tcp's domain to a served unit, or ANY well-formed frame the framer's unit filter
   rejects (traffic for other stations on the bus: skipped whatever its PDU is).  EVERY division of the character
   stream into reads, empty and one-character reads included. *)
From PM.theories Require Import Base Expr Struct FrBaseA FrSpecA Lrc FrAscii PduCls PduSpec Pdu Store Exec ExecSpec Server
                                EndToEnd EndToEndSerial CorrE2E CorrE2ESerial.
From PM.Generated Require Import GenFramerA.
From PM.Generated Require GenStore GenExec GenServer.
From PM.proofs Require Import EndToEnd_spec_proofs EndToEnd_proofs EndToEndSerial_proofs.
From PM.Props Require C09_e2e.
Open Scope string_scope.
Open Scope list_scope.
Open Scope Z_scope.

Theorem C09_e2e_ascii : forall sk cfg (l : units slavectx) (su : sunits) (qs : list e2e_req) (chunks : list bytes),
  In sk serial_fes ->                                     (* the generated skeleton sync_serial *)
  units_rel l su ->                                       (* stores abstract to su; C04 invariant; 16-bit cells *)
  Forall (item_ok KAscii sk cfg (u_keys slavectx l) (framer_cfg sk cfg l)) qs ->
  concat chunks = concat (map req_adu_ascii qs) ->        (* ANY division of the character stream into reads *)
  exists l' st',
    ascii_server_run sk cfg l chunks = result l' (snd (spec_run_g ascii_adu (cf_single cfg) su qs)) st' /\
    units_rel l' (fst (spec_run_g ascii_adu (cf_single cfg) su qs)).
Proof.
  intros sk cfg l su qs chunks Hsk Hrel Hok Hcat. pose proof (serial_fe_ok sk Hsk) as Hfe.
  destruct (stream_spec_g KAscii packet_ascii ascii_adu sk cfg _ _ ascii_pk_ok Hfe (fun q H => proj1 H) qs l su eq_refl Hrel Hok)
    as (l' & Hall & Hrel' & _).
  destruct (feed_ascii _ qs chunks (ascii_frames sk cfg _ _ qs Hok) Hcat) as (st' & Hfeed).
  exists l', st'. split; [|exact Hrel']. exact (run_serial_handle _ packet_ascii sk cfg (proj1 Hfe) _ _ _ _ _ _ _ Hfeed Hall).
Qed.
Print Assumptions C09_e2e_ascii.

(* the framing-independent core: the reference deliveries of C06 are handled as the abstract server prescribes,
   rejected frames change nothing ([k <> KTls] is not used by the proof) *)
Theorem C09_e2e_stream : forall k pk adu, pk_ok pk adu (fun q => spec_delivery k (frame_of q)) ->
  forall sk cfg, fe_ok sk -> forall qs, k <> KTls -> forall l su l0,
  u_keys slavectx l = u_keys slavectx l0 -> units_rel l su ->
  Forall (item_ok k sk cfg (u_keys slavectx l0) (framer_cfg sk cfg l0)) qs ->
  exists l', handle_all pk sk cfg l (ref_deliveries k (framer_cfg sk cfg l0) (map frame_of qs))
               = (l', snd (spec_run_g adu (cf_single cfg) su qs), None) /\
             units_rel l' (fst (spec_run_g adu (cf_single cfg) su qs)) /\ u_keys slavectx l' = u_keys slavectx l0.
Proof.
  intros k pk adu Hpk sk cfg Hsk qs _ l su l0 Hk Hrel Hok.
  exact (stream_spec_g k pk adu sk cfg _ _ Hpk Hsk (fun q H => proj1 H) qs l su Hk Hrel Hok).
Qed.
Print Assumptions C09_e2e_stream.

Theorem C09_e2e_ascii_packet : pk_ok packet_ascii ascii_adu (fun q => spec_delivery KAscii (frame_of q)).
Proof. exact ascii_pk_ok. Qed.
Print Assumptions C09_e2e_ascii_packet.

(* non-vacuity: unit 1 hosted (multi-unit context); write register 2 := 0x1234 to unit 1, a frame for unit 9 (not
   served), read registers 1..3 of unit 1, read coils 8..10 (outside the table); two one-character reads, an empty
   read, 20 characters, the rest. *)
Definition nva_cfg : scfg := {| cf_single := false; cf_bcast := false; cf_ignore := false |}.
Definition nva_reqs : list e2e_req :=
  [{| q_tid := 0; q_pid := 0; q_uid := 1; q_body := QMsg (MWriteRegReq 2 4660) |};
   {| q_tid := 0; q_pid := 0; q_uid := 9; q_body := QMsg (MWriteRegReq 2 7) |};
   {| q_tid := 0; q_pid := 0; q_uid := 1; q_body := QMsg (MReadHoldingReq 1 3) |};
   {| q_tid := 0; q_pid := 0; q_uid := 1; q_body := QMsg (MReadCoilsReq 8 3) |}].
Definition nva_stream : bytes := concat (map req_adu_ascii nva_reqs).
Definition nva_chunks : list bytes :=
  [firstn 1 nva_stream; firstn 1 (skipn 1 nva_stream); []; firstn 20 (skipn 2 nva_stream); skipn 22 nva_stream].
Definition nva_units : units slavectx := [(1, C09_e2e.nv_ctx)].

Example C09_e2e_ascii_nonvacuous :
  In GenServer.sync_serial serial_fes /\
  Forall (fun p => store_ok (snd p)) nva_units /\
  Forall (item_ok KAscii GenServer.sync_serial nva_cfg (u_keys slavectx nva_units)
                  (framer_cfg GenServer.sync_serial nva_cfg nva_units)) nva_reqs /\
  concat nva_chunks = concat (map req_adu_ascii nva_reqs) /\
  e_out (ascii_server_run GenServer.sync_serial nva_cfg nva_units nva_chunks) =
    [58; 48; 49; 48; 54; 48; 48; 48; 50; 49; 50; 51; 52; 66; 49; 13; 10;                      (* :010600021234B1 *)
     58; 48; 49; 48; 51; 48; 54; 48; 48; 48; 48; 49; 50; 51; 52; 48; 48; 48; 48; 66; 48; 13; 10;   (* :010306000012340000B0 *)
     58; 48; 49; 56; 49; 48; 50; 55; 67; 13; 10]%N /\                                        (* :0181027C *)
  snd (spec_run_g ascii_adu false (abs_units nva_units) nva_reqs) =
    e_out (ascii_server_run GenServer.sync_serial nva_cfg nva_units nva_chunks).
Proof.
  split; [cbv [serial_fes]; cbn [In]; tauto|].
  split. { constructor; [|constructor]. split.
           - intros t; destruct t; eexists; (split; [reflexivity|cbn; lia]).
           - repeat constructor; unfold u16v; lia. }
  split. { unfold nva_reqs. repeat (apply Forall_cons || apply Forall_nil).
           (* the frame for unit 9 is rejected by the filter, the others are served *)
           2: (right; split; [|reflexivity]; cbn; unfold ascii_wf; cbn; repeat split; lia).
           all: left; split; [|reflexivity]; repeat split; cbn; try lia; try tauto; eexists; cbn; repeat split; reflexivity. }
  split; [vm_compute; reflexivity|].
  pattern (ascii_server_run GenServer.sync_serial nva_cfg nva_units nva_chunks). vm_compute. split; reflexivity.
Qed.
