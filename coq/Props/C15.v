(* Props/C15.v — Concurrent callers of one synchronous client are serialised.
   Each theorem is read off the invariants of proofs/Lock_proofs.v ([inv], which also defines
   [wb_program]) and proofs/LockSerial_proofs.v ([sinv]; [quiescent], [own_result], [own_ok],
   [good_program], [cblk], [ctag]) or the facts about the regenerated skeleton in
   proofs/LockGen_proofs.v; the reading-off is done here, at length for [C15_contiguous].
   Model: theories/Lock.v — any number of threads, each running any list of calls, every call a
   list of abstract operations; one step = one operation of one thread; [reachable] = reachable
   by SOME schedule, so a statement about all reachable states is a statement about EVERY
   schedule.  PARTIAL: pre-emption is at operation granularity (connect / lock / send / receive /
   table / buffer operations); bytecode-level pre-emption and the GIL are outside the model. *)
From PM.theories Require Import Base Lock.
From PM.Generated Require Import GenLock.
From PM.proofs Require Import Lock_proofs LockSerial_proofs LockGen_proofs.
Open Scope list_scope.

(* The skeleton regenerated from pymodbus/transaction.py and client/sync.py: the lock is bound
   exactly once, in __init__, to RLock(); the call on its main path, EVERY shared-state site on
   every branch, and the retry loop unrolled any number of times all sit inside one bracket. *)
Example C15_generated_ok : well_bracketed GenLock.call_skeleton = true.
Proof. exact gen_call_ok. Qed.
Print Assumptions C15_generated_ok.

Theorem C15_generated_all_ok :
  lock_bindings_ok lock_bindings = true /\ well_bracketed call_skeleton = true /\
  well_bracketed (client_prefix ++ execute_allsites) = true /\
  forall n, well_bracketed (client_prefix ++ execute_unrolled n) = true.
Proof. exact (conj gen_bindings_ok (conj gen_call_ok (conj gen_allsites_ok gen_unrolled_ok))). Qed.
Print Assumptions C15_generated_all_ok.

(* the broadcast path (client.broadcast_enable and unit 0: send, no receive) is one bracket too,
   on its main path and over all its sites, and returns its own acknowledgement *)
Theorem C15_generated_broadcast_ok :
  well_bracketed broadcast_call_skeleton = true /\
  well_bracketed (client_prefix ++ broadcast_allsites) = true /\
  own_ok broadcast_call_skeleton.
Proof. exact (conj (proj1 gen_broadcast_ok) (conj (proj2 gen_broadcast_ok) gen_broadcast_own_ok)). Qed.
Print Assumptions C15_generated_broadcast_ok.

(* at most one thread is between its send and the end of its receive — any threads, any calls,
   every schedule, re-entrant or not *)
Theorem C15_mutex : forall re tid0 P σ t1 t2 th1 th2,
  wb_program P -> reachable re (init tid0 P) σ ->
  nth_error (st_thr σ) t1 = Some th1 -> nth_error (st_thr σ) t2 = Some th2 ->
  in_flight th1 = true -> in_flight th2 = true -> t1 = t2.
Proof. exact mutex_all_schedules. Qed.
Print Assumptions C15_mutex.

(* while one thread is inside its bracket, every other thread is at a connection check or waiting
   to acquire: it has touched nothing shared in its current call *)
Theorem C15_exclusive : forall re tid0 P σ o d t th,
  wb_program P -> reachable re (init tid0 P) σ ->
  sh_lock (st_sh σ) = Some (o, d) -> nth_error (st_thr σ) t = Some th -> t <> o ->
  in_flight th = false /\
  match th_prog th with
  | (op :: _) :: _ => op = ConnectCheck \/ op = Acquire
  | _ => True
  end.
Proof.
  intros re tid0 P σ o d t th HP Hr El Ht Hne.
  destruct (inv_owner_exclusive _ _ _ _ _ (inv_program _ _ _ _ HP Hr) El Ht Hne) as [Hw Hq]. split; auto.
  destruct (th_prog th) as [|[|op r] rest]; auto.
  inversion Hw as [|? ? Hh _]; subst. destruct (wb_step_shape _ _ Hh) as [[-> _]|[-> _]]; auto.
Qed.
Print Assumptions C15_exclusive.

(* single re-entrant lock: some thread can always move unless all are done *)
Theorem C15_no_deadlock : forall tid0 P σ,
  wb_program P -> reachable true (init tid0 P) σ ->
  (exists t σ', step true σ t = Some σ') \/ all_done σ = true.
Proof. intros tid0 P σ HP Hr. eapply inv_progress, inv_program; eauto. Qed.
Print Assumptions C15_no_deadlock.

(* … and re-entrancy is needed for that: with a plain Lock a nested acquisition blocks for ever *)
Theorem C15_nonreentrant_deadlocks :
  let P := [[[Acquire; Acquire; Release; Release]]] in
  let σ := run false [0; 0; 0; 0]%nat (init 0 P) in
  all_done σ = false /\ forall t, step false σ t = None.
Proof. cbn. split; [reflexivity|]. intros [|[|t]]; reflexivity. Qed.
Print Assumptions C15_nonreentrant_deadlocks.

(* [good_program P]: every call of every thread is one bracket (well_bracketed) and is [own_ok]:
   run ALONE against an in-order responsive peer from any quiescent client state and any values of
   its locals, it leaves the client quiescent and returns the reply to its own request. *)

(* the regenerated call has both properties *)
Theorem C15_generated_own_ok : own_ok GenLock.call_skeleton.
Proof. exact gen_call_own_ok. Qed.
Print Assumptions C15_generated_own_ok.

(* the transport log is a concatenation of WHOLE per-call blocks — each the complete transport
   projection (connect/send/recv) of one call of the program, no call twice — followed only by the
   block-so-far of the thread that holds the lock: frames of different calls never interleave *)
Theorem C15_contiguous : forall re tid0 P σ,
  good_program P -> reachable re (init tid0 P) σ ->
  exists closed cur,
    sh_log (st_sh σ) = concat (map cblk closed) ++ cur /\
    NoDup (map ctag closed) /\
    Forall (fun e => exists calls, In calls P /\ In (snd e) calls) closed /\
    match sh_lock (st_sh σ) with
    | None => cur = []
    | Some (o, _) => exists th, nth_error (st_thr σ) o = Some th /\
                     cur = block o (th_k th) (th_done th) /\ ~ In (o, th_k th) (map ctag closed)
    end.
Proof.
  intros re tid0 P σ HP Hr.
  destruct (good_program_sinv re tid0 P σ HP Hr) as [Hi (closed & Hnd & Hq & Hfree & Htin)].
  exists closed.
  assert (Hq' : Forall (fun e => exists calls, In calls P /\ In (snd e) calls) closed)
    by (revert Hq; apply Forall_impl; intros e He; exact (proj2 He)).
  destruct (sh_lock (st_sh σ)) as [[o d]|] eqn:El.
  - (* held by o: the rest of the log is what o has run since it took the lock *)
    destruct (inv_owner Hi El) as (th & op & r & rest & _ & Eo & Ep & _).
    destruct (Htin o th Eo) as [_ _ T3 T4].
    rewrite El in T4. cbn in T4. rewrite Nat.eqb_refl in T4.
    destruct T4 as (s0 & l0 & _ & Hlog0 & Hrun).
    exists (block o (th_k th) (th_done th)).
    split; [|split; [exact Hnd|split; [exact Hq'|]]].
    + rewrite (run_ops_log _ _ _ _ _ _ _ _ Hrun), Hlog0. reflexivity.
    + exists th. split; [exact Eo|split; [reflexivity|]].
      (* o is inside its call, so that call has no closed block yet *)
      intro Hin. apply in_map_iff in Hin.
      destruct Hin as ([[t1 k1] c1] & [= -> ->] & Hin).
      destruct (T3 _ _ Hin) as [Hlt|[_ [rs Hrs]]]; [lia|].
      rewrite Ep in Hrs. discriminate.
  - (* free *)
    exists []. destruct (Hfree eq_refl) as [_ Hlog]. rewrite app_nil_r. auto.
Qed.
Print Assumptions C15_contiguous.

(* each completed call returned the reply to its own request (no reply lost, duplicated or
   swapped), one value per call, in call order — for every schedule *)
Theorem C15_own_reply : forall re tid0 P σ t th,
  good_program P -> reachable re (init tid0 P) σ -> nth_error (st_thr σ) t = Some th ->
  map fst (th_results th) = seq 0 (th_k th) /\
  forall k r, In (k, r) (th_results th) -> own_result t k r.
Proof.
  intros re tid0 P σ t th HP Hr Ht. destruct (good_program_sinv re tid0 P σ HP Hr) as [_ (closed & _ & _ & _ & Htin)].
  destruct (Htin t th Ht) as [_ [Ha Hb] _ _]. split; auto.
  intros k r Hin. rewrite Forall_forall in Ha. exact (Ha (k, r) Hin).
Qed.
Print Assumptions C15_own_reply.

Theorem C15_quiescent_when_free : forall re tid0 P σ,
  good_program P -> reachable re (init tid0 P) σ -> sh_lock (st_sh σ) = None -> quiescent (st_sh σ).
Proof.
  intros re tid0 P σ HP Hr El. destruct (good_program_sinv re tid0 P σ HP Hr) as [_ (closed & _ & _ & Hfree & _)].
  apply Hfree; auto.
Qed.
Print Assumptions C15_quiescent_when_free.

(* without the single bracket the conclusion is false: send under one acquisition and receive /
   pick-up under a second one lets two threads get each other's replies *)
Theorem C15_needs_the_bracket :
  let bad := [Acquire; TidAlloc; Connect; Send; Release; Acquire; Recv; Process; Pickup; Release] in
  let σ := run true [0;0;0;0;0; 1;1;1;1;1;1;1;1;1;1;1; 0;0;0;0;0;0]%nat (init 0 [[bad]; [bad]]) in
  well_bracketed bad = false /\
  map th_results (st_thr σ) =
    [[(0%nat, Some {| f_tid := 2; f_thr := 1; f_k := 0 |})];
     [(0%nat, Some {| f_tid := 1; f_thr := 0; f_k := 0 |})]].
Proof. vm_compute. split; reflexivity. Qed.
Print Assumptions C15_needs_the_bracket.

(* the hypotheses are satisfiable by the generated skeletons: any threads, any mix of unicast and
   broadcast calls *)
Example C15_nonvacuous : forall prog : list (list bool),
  let P := map (map (fun b : bool => if b then broadcast_call_skeleton else call_skeleton)) prog in
  wb_program P /\ good_program P.
Proof. intro prog. split; [apply good_program_wb|]; apply gen_good_program_mixed. Qed.
Print Assumptions C15_nonvacuous.
