(* Props/C20.v — Device identification is returned completely, in pages that fit.
   Every theorem is about [GenDevInfo.code], the record gen/gen_devinfo.py regenerates on every run
   from pymodbus/mei_message.py, device.py, constants.py and pdu.py.  Identities are arbitrary
   functions object id -> byte string; from C20_multi_conservative on, the extended model
   (theories/DevInfoMulti.v): a value is one item or a list of items, an item has a length and wire bytes. *)
From PM.theories Require Import Base Expr DevInfo DevInfoMulti.
From PM.Generated Require Import GenDevInfo.
From PM.proofs Require Import DevInfo_proofs DevInfoMulti_proofs.
Open Scope list_scope.
Open Scope Z_scope.

(* no response PDU exceeds 253 bytes: every identity, every read code, every start id
   (the byte-string case of C20_text_bound_partial below, through C20_multi_conservative) *)
Theorem C20_bound : forall idn c oid pdu,
  server_reply code idn c oid = Ok pdu -> Z.of_nat (length pdu) <= max_pdu.
Proof.
  intros idn c oid pdu H. rewrite <- multi_conservative in H.
  exact (text_bound_partial _ c oid pdu (maccurate_lift idn) H).
Qed.
Print Assumptions C20_bound.

(* COMPLETENESS.  Every value at most 244 bytes, read code 1-3 (stream access), start id 0 or a
   configured object of the category: the chain of requests a client performs while
   more-follows = 0xFF terminates (any fuel above the number of expected objects is enough, so
   fuel is never exhausted) and the concatenation of the pages' objects is exactly the
   configured non-empty objects of the category from the start id on - each once, ascending. *)
Theorem C20_complete : forall idn c oid fuel,
  fits idn -> stream_code c -> start_ok idn c oid = true ->
  (length (expected idn c oid) < fuel)%nat ->
  exists ps, pchain code idn c oid fuel = (ps, PDone)
             /\ concat (map pg_objs ps) = expected idn c oid
             /\ NoDup (map fst (concat (map pg_objs ps))).
Proof. exact complete_pages. Qed.
Print Assumptions C20_complete.

(* The same as the client sees it ON THE WIRE: execute -> encode -> client decode of the reply
   bytes, followed while the decoded more-follows is 0xFF (read code and object id reach execute as
   numbers: the request leg is not part of this model).  The decoded objects of the
   successive responses, concatenated, are exactly the expected objects. *)
Theorem C20_complete_wire : forall idn c oid fuel,
  fits idn -> stream_code c -> start_ok idn c oid = true ->
  (length (expected idn c oid) < fuel)%nat ->
  exists rs, chain code idn c oid fuel = (rs, ChainDone)
             /\ flat_map (fun r => info_objects (rs_info r)) rs = expected idn c oid.
Proof.
  intros idn c oid fuel Hfit Hc Hs Hf. destruct (start_ok_get _ _ _ Hc Hs) as [Hb Hget].
  destruct (complete_pages idn c oid fuel Hfit Hc Hs Hf) as [ps [Hp [Hcat _]]].
  rewrite (chain_is_pchain idn c Hfit Hc fuel oid oid Hb Hget), Hp. cbn [fst snd chain_end_of].
  eexists. split; [reflexivity|]. rewrite <- Hcat, flat_map_concat_map, map_map. f_equal.
  apply map_ext, info_objects_page.
Qed.
Print Assumptions C20_complete_wire.

Theorem C20_decode_encode : forall p b,
  NoDup (map fst (pg_objs p)) -> encode_page code p = Ok b ->
  decode_reply code (Z.to_N (c_fc code) :: b) = DOk (RResp (response_of_page p)).
Proof. exact decode_encode. Qed.
Print Assumptions C20_decode_encode.

(* individual access (read code 4) returns the single requested object, in one page *)
Theorem C20_individual : forall idn oid fuel,
  0 <= oid <= 255 -> blen (idn oid) <= 244 -> (0 < fuel)%nat ->
  pchain code idn 4 oid fuel =
  ([{| pg_code := 4; pg_more := 0; pg_next := 0; pg_objs := [(oid, idn oid)] |}], PDone).
Proof.
  intros idn oid fuel Hb Hv Hf. destruct fuel as [|n]; [lia|]. cbn [pchain].
  rewrite execute_ok by lia. rewrite factory_get_4. cbn [bind]. unfold page_of.
  rewrite space0_eq, page_objs_cons. destruct (247 - (2 + blen (idn oid)) <=? 0) eqn:E; [lia|].
  cbn [page_objs pg_more pg_next]. reflexivity.
Qed.
Print Assumptions C20_individual.

(* any other start id: termination (and what is streamed: from the id itself if it is
   configured - or always for read code 1 - else from object 0); the size bound is C20_bound *)
Theorem C20_other_start : forall idn c oid fuel,
  fits idn -> stream_code c -> 0 <= oid <= 255 ->
  (length (category c) < fuel)%nat ->
  exists ps, pchain code idn c oid fuel = (ps, PDone)
             /\ concat (map pg_objs ps) = expected idn c (stream_start idn c oid).
Proof.
  intros idn c oid fuel Hfit Hc Hb Hf. apply (pchain_from idn c Hfit Hc); [exact Hb|apply stream_get; [exact Hc|lia]|].
  eapply Nat.le_lt_trans; [|exact Hf]. unfold expected, objects_of.
  eapply Nat.le_trans; [apply filter_len_le|]. rewrite map_length. apply filter_len_le.
Qed.
Print Assumptions C20_other_start.

(* the full statement with the property's own bound (values up to 245 bytes); it is FALSE *)
Definition C20_full_statement : Prop := forall idn c oid,
  (forall k, blen (idn k) <= 245) -> stream_code c -> start_ok idn c oid = true ->
  exists fuel ps, pchain code idn c oid fuel = (ps, PDone)
                  /\ concat (map pg_objs ps) = expected idn c oid.

Theorem C20_complete_refuted : ~ C20_full_statement.
Proof.
  intros H. destruct (H long_identity 1 0) as [fuel [ps [Hp _]]].
  - intro k. unfold long_identity, id_of. destruct (0 =? k); vm_compute; discriminate.
  - left; reflexivity.
  - reflexivity.
  - pose proof (pchain_long_forever fuel) as Hf. rewrite Hp in Hf. discriminate.
Qed.
Print Assumptions C20_complete_refuted.

(* a 245-byte object: the same empty page, more-follows set, next id = the same id, forever *)
Theorem C20_too_long_refuted : forall fuel,
  blen long_value = 245 /\
  chain code long_identity 1 0 fuel = (repeat empty_page_response fuel, ChainOutOfFuel).
Proof.
  intro fuel. split; [reflexivity|]. induction fuel as [|f IH]; [reflexivity|].
  cbn [chain]. rewrite transact_long. cbn [rs_more rs_next empty_page_response Z.eqb Pos.eqb].
  now rewrite IH.
Qed.
Print Assumptions C20_too_long_refuted.

(* ... and no conforming implementation could return it: fc, MEI type, read code, conformity,
   more, next, count (7 bytes) + id, length (2) + 245 > 253 *)
Theorem C20_245_unsatisfiable : forall o : object, blen (snd o) = 245 -> min_pdu_with o > max_pdu.
Proof. intros o. unfold min_pdu_with, obj_size, max_pdu. lia. Qed.
Print Assumptions C20_245_unsatisfiable.

(* every read code outside 1..4 - read code 0 included: the guard of execute turns it away
   before the factory's lookup table is consulted - is answered with exception 03,
   IllegalValue, for every identity and object id *)
Theorem C20_invalid_read_code : forall idn c oid,
  0 <= oid <= 255 -> ~ (1 <= c <= 4) -> execute code idn c oid = Ok (ExcResponse 3).
Proof.
  intros idn c oid H Hc. rewrite execute_eq.
  now replace ((0 <=? oid) && (oid <=? 255) && (1 <=? c) && (c <=? 4)) with false by lia.
Qed.
Print Assumptions C20_invalid_read_code.

(* ... and execute raises for no identity, read code and object id at all *)
Theorem C20_execute_never_raises : forall idn c oid, exists r, execute code idn c oid = Ok r.
Proof.
  intros idn c oid. rewrite execute_eq.
  destruct ((0 <=? oid) && (oid <=? 255) && (1 <=? c) && (c <=? 4)) eqn:E; [|eauto].
  assert (Hc : c = 1 \/ c = 2 \/ c = 3 \/ c = 4) by lia.
  destruct Hc as [-> | [-> | [-> | ->]]];
    rewrite ?factory_get_1, ?factory_get_2, ?factory_get_3, ?factory_get_4; cbn [bind]; eauto.
Qed.
Print Assumptions C20_execute_never_raises.

(* CONFIGURATION HISTORIES.  Whatever sequence of ModbusDeviceIdentification(info=...) constructor
   calls, Identity.update({...}), Identity[k] = v and named-property assignments configured the
   device, the identity the server reads is the spec's final map: the last value written per
   object id, a blank value withdrawing the object.  (update / __setitem__ / __init__ /
   __getitem__ / dict_property are translated or template-matched by gen_devinfo.py.)  All
   theorems above then speak about [id_of (configured code h)]. *)
Theorem C20_config_history : forall h, configured code h = spec_configured h.
Proof.
  intros h. unfold configured, spec_configured. generalize (@nil object).
  induction h as [|o t IH]; intros m; [reflexivity|]. cbn [fold_left]. rewrite cfg_apply_spec. apply IH.
Qed.
Print Assumptions C20_config_history.

(* on single-valued byte-string identities the extended server IS the server above, so every
   theorem of this file applies to the extended model there *)
Theorem C20_multi_conservative : forall idn c oid,
  mserver_reply code (lift_identity idn) c oid = server_reply code idn c oid.
Proof. exact multi_conservative. Qed.
Print Assumptions C20_multi_conservative.

(* completeness over multi-valued identities, kept visible; it is FALSE *)
Definition C20_multi_full_statement : Prop := forall idn c oid,
  (c = 1 \/ c = 2 \/ c = 3) -> oid = 0 ->
  exists fuel rs, mchain code idn c oid fuel = (rs, ChainDone) /\ received rs = mexpected idn c oid.

Theorem C20_multi_refuted : ~ C20_multi_full_statement.
Proof.
  intros H. destruct (H loop_identity 3 0) as [fuel [rs [Hc _]]]; auto.
  rewrite multi_loop in Hc. discriminate.
Qed.
Print Assumptions C20_multi_refuted.

(* a two-item list split after its first item is continued from its FIRST item: the client
   receives that item twice *)
Theorem C20_multi_resend_refuted :
  exists rs, mchain code resend_identity 3 0 5 = (rs, ChainDone)
    /\ received rs = [(0, repeat 86%N 100); (128, repeat 97%N 100); (128, repeat 97%N 100); (128, repeat 98%N 100)]
    /\ mexpected resend_identity 3 0 = [(0, repeat 86%N 100); (128, repeat 97%N 100); (128, repeat 98%N 100)].
Proof. eexists. split; [vm_compute; reflexivity|]. split; reflexivity. Qed.
Print Assumptions C20_multi_resend_refuted.

(* a list that alone is larger than a page: the same leading items, more-follows, forever *)
Theorem C20_multi_loop_refuted : forall fuel,
  mchain code loop_identity 3 0 fuel = (repeat loop_response fuel, ChainOutOfFuel).
Proof. exact multi_loop. Qed.
Print Assumptions C20_multi_loop_refuted.

(* str values: the accounting sees len() = 200, the wire carries 400 bytes: a 409-byte PDU *)
Theorem C20_text_bound_refuted :
  exists pdu, mserver_reply code text_identity 1 0 = Ok pdu /\ Z.of_nat (length pdu) = 409 /\ 409 > max_pdu.
Proof. eexists. split; [vm_compute; reflexivity|]. split; [reflexivity | unfold max_pdu; lia]. Qed.
Print Assumptions C20_text_bound_refuted.

(* the bound holds for every identity - multi-item lists included - whose items have
   len() = encoded length (bytes, ASCII text) *)
Theorem C20_text_bound_partial : forall idn c oid pdu,
  maccurate idn -> mserver_reply code idn c oid = Ok pdu -> Z.of_nat (length pdu) <= max_pdu.
Proof. exact text_bound_partial. Qed.
Print Assumptions C20_text_bound_partial.

Example C20_nonvacuous :
  let idn := id_of [(0, repeat 86%N 200); (1, repeat 80%N 100); (2, repeat 49%N 3); (5, [77%N])] in
  fits idn /\ stream_code 2 /\ start_ok idn 2 0 = true /\ start_ok idn 2 1 = true
  /\ map (fun p => (map fst (pg_objs p), pg_more p, pg_next p)) (fst (pchain code idn 2 0 5))
     = [([0], 255, 1); ([1; 2; 5], 0, 0)].
Proof.
  cbv zeta. split; [|repeat split; auto; vm_compute; auto].
  intro k. unfold id_of. repeat (destruct (_ =? k); [vm_compute; discriminate|]). vm_compute; discriminate.
Qed.
