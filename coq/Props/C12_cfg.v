(* C12 add-on — C12 presupposes that the store, decoder, framer and flags the serving code reads ARE
   the ones the user configured at a documented entry point; here, over the generated tables
   GenWiring.factories / truth_facts / decoder_facts and GenFrontends.server_wiring / servers. *)
From PM.theories Require Import Base Ladder Frontends CorrFrontends Wiring.
From PM.Generated Require Import GenFrontends GenWiring.
From PM.proofs Require Import Wiring_proofs.
Import ListNotations.
Open Scope string_scope.
Open Scope list_scope.

(* from every Start*Server factory: the user's value is served whatever its user-level truth value,
   the constructor's default only when nothing was passed *)
Theorem C12_entry_point_serves_user_value : forall f fe role,
  In f factories -> In (fa_target f, fe) servers -> In role (required_roles fe) ->
  exists roles s p, assoc_s (fa_target f) server_wiring = Some roles /\ assoc_s role roles = Some s /\
    wparam s = Some p /\
    forall V (env : string -> option V) (user_truth : V -> bool) (d : V),
      (forall x, env role = Some x ->
         configured_t s (py_truthy (role_overrides truth_facts role) user_truth) (ctor_sees f env p) d = x) /\
      (env role = None ->
         configured_t s (py_truthy (role_overrides truth_facts role) user_truth) (ctor_sees f env p) d = d).
Proof. exact entry_point_serves_user_value. Qed.
Print Assumptions C12_entry_point_serves_user_value.

(* the same for a server object the user constructs directly (C12_server_wiring states it for
   Ladder.configured, which ignores truth values) *)
Theorem C12_constructor_serves_user_value : forall srv fe role,
  In (srv, fe) servers -> In role (required_roles fe) ->
  exists roles s, assoc_s srv server_wiring = Some roles /\ assoc_s role roles = Some s /\
    forall V (user_truth : V -> bool) (x d : V),
      configured_t s (py_truthy (role_overrides truth_facts role) user_truth) (Some x) d = x /\
      configured_t s (py_truthy (role_overrides truth_facts role) user_truth) None d = d.
Proof. exact constructor_serves_user_value. Qed.
Print Assumptions C12_constructor_serves_user_value.

Theorem C12_entry_points_covered :
  forallb (fun n => existsb (fun f => String.eqb (fa_name f) n) factories) entry_points = true.
Proof. vm_compute. reflexivity. Qed.
Print Assumptions C12_entry_points_covered.

(* custom functions are registered on the built server's decoder, and decoders keep their lookup
   tables per instance *)
Theorem C12_custom_functions_stay_local :
  (forall f, In f factories -> fa_registers f = true) /\
  (forall c a b, In (c, (a, b)) decoder_facts -> a = true /\ b = true).
Proof.
  split.
  - intros f Hf. pose proof (factories_ok f Hf) as H. apply andb_prop in H. apply H.
  - intros c a b Hin. pose proof decoder_facts_ok as H. rewrite forallb_forall in H.
    apply andb_prop. exact (H _ Hin).
Qed.
Print Assumptions C12_custom_functions_stay_local.

(* why the truth facts are needed: a context class with __len__ would lose an empty context *)
Theorem C12_falsy_context_would_be_replaced :
  forall V (x d : V), configured_t (WOrDefault "context" "ModbusServerContext()") (py_truthy true (fun _ => false)) (Some x) d = d.
Proof. intros V x d. apply configured_t_false_value. reflexivity. Qed.
Print Assumptions C12_falsy_context_would_be_replaced.

Example C12_cfg_nonvacuous :
  length factories = 10%nat /\ (9 <= length servers)%nat /\
  (exists f, In f factories /\ fa_name f = "sync.StartTcpServer" /\
     ctor_sees f (fun k => if String.eqb k "broadcast_enable" then Some 1%nat else None) "broadcast_enable" = Some 1%nat /\
     ctor_sees f (fun k => if String.eqb k "context" then Some 7%nat else None) "context" = Some 7%nat /\
     ctor_sees f (fun k => if String.eqb k "framer" then Some 9%nat else None) "framer" = Some 9%nat).
Proof. exact wiring_nonvacuous. Qed.
Print Assumptions C12_cfg_nonvacuous.
