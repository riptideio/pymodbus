(* C01 add-on — Read Device Identification responses, paged or not.
   C01_encode_conforms covers the responses that fit one PDU (one spec message stands for the
   object).  This covers ALL of them, including responses that must be paged and list-valued
   (repeated) object ids that run out of space anywhere: whatever ReadDeviceInformationResponse
   .encode() emits is a self-consistent 43/14 response — after the six header bytes exactly
   NUMBER-OF-OBJECTS objects (id, length, that many bytes) follow and nothing else (v1.1b3 6.21).
   [mei_wire_ok] is also the oracle the correspondence applies to what the real encoder emitted. *)
From PM.theories Require Import Base Struct PduCls PduSpec Pdu CorrPdu.
From PM.proofs Require Import Pdu_mei_wire_proofs.
Open Scope Z_scope.

Theorem C01_mei_wire_consistent : forall rc cf more next nobj info sl b,
  py_pdu (OMeiRsp 14 rc cf more next nobj info sl) = Ok b -> mei_wire_ok b = true.
Proof. exact mei_wire_consistent. Qed.
Print Assumptions C01_mei_wire_consistent.

(* [enc1], [ok1]: proofs/Pdu_mei_wire_proofs.v *)
Theorem C01_mei_objects_counted : forall items space n acc objs sp n' oos,
  mei_objs items space n acc = Ok (objs, sp, n', oos) ->
  exists ds, objs = acc ++ flat_map enc1 ds /\ n' = n + zlen ds /\ List.Forall ok1 ds.
Proof. exact mei_objs_shape. Qed.
Print Assumptions C01_mei_objects_counted.

(* non-vacuous: a list-valued object that runs out of space after two of its three items *)
Example C01_mei_nonvacuous :
  exists b, py_pdu (OMeiRsp 14 1 131 0 0 0 [(0, MOne (List.repeat 65%N 10)); (128, MMany [List.repeat 66%N 100; List.repeat 67%N 100; List.repeat 68%N 100])] None) = Ok b
            /\ mei_wire_ok b = true /\ List.nth 6 b 0%N = 3%N /\ List.nth 4 b 0%N = 255%N.
Proof. eexists. split; [vm_compute; reflexivity|]. vm_compute. auto. Qed.
Print Assumptions C01_mei_nonvacuous.
