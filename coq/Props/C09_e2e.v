(* END-TO-END composition for the Modbus/TCP server path: the component theorems C06_tcp, C01, C04, C03_build_tcp
   and the C09/C10 skeleton lemmas composed through the lemmas of proofs/EndToEnd*_proofs.v; nothing about the
   components is re-proved.

   Model side — [tcp_server_run sk cfg eof l chunks] (theories/EndToEnd.v): the component models glued together:
   FrTcp.t_recv with the Pdu model's ServerDecoder as its decoder, Exec.serve GenExec.code over the datastore
   model, Server.respond on the GENERATED skeleton [sk] of the front-end, Pdu.py_encode + FrTcp.t_build for the
   response.  [l] = the hosted unit contexts, [chunks] = the reads of one connection, [eof] = an empty read ends
   the stream (threaded handler).
   Spec side — theories/CorrE2E.v: [spec_run single su qs] executes every request with ExecSpec.spec_exec on the
   abstract state of the unit it addresses, as left by its predecessors, and concatenates the MBAP ADUs
   spec_adu_tcp tid 0 uid (spec_pdu (spec_response_msg response_i)), normal or exception.

   Quantified over: the three TCP front-end skeletons; every configuration; every hosted set and datastore layout
   satisfying the C04 invariant [inv] whose cells hold 16-bit values; every list of requests FC 1-6, 15, 16, 22, 23
   whose fields fit their wire widths (illegal addresses and quantities are answered with exceptions), any
   transaction and protocol id, served unit ids; EVERY division of the byte stream into reads. *)
From PM.theories Require Import Base Expr Struct FrBaseA FrTcp FrSpecA PduCls PduSpec Pdu Store Exec ExecSpec Server EndToEnd CorrE2E.
From PM.Generated Require Import GenFramerA.
From PM.Generated Require GenStore GenExec GenServer.
From PM.proofs Require Import EndToEnd_adapt_proofs EndToEnd_spec_proofs EndToEnd_proofs.
Open Scope string_scope.
Open Scope list_scope.
Open Scope Z_scope.

(* the full statement asked for: EVERY well-formed request message addressed to a served unit (diagnostics, file
   records, device identification included) *)
Definition C09_e2e_full_statement : Prop :=
  forall sk cfg eof (l : units slavectx) (su : sunits) (qs : list e2e_req) (chunks : list bytes),
  In sk tcp_fes -> units_rel l su ->
  Forall (fun q => 0 <= q_tid q < 65536 /\ 0 <= q_pid q < 65536 /\ 0 <= q_uid q < 256 /\
                   (exists m, q_body q = QMsg m /\ CorrPdu.msg_is_request m = true /\ spec_wf m = true) /\
                   served sk cfg (u_keys slavectx l) (q_uid q)) qs ->
  concat (eff_chunks eof chunks) = concat (map req_adu qs) ->
  exists l' st',
    tcp_server_run sk cfg eof l chunks = result l' (snd (spec_run (cf_single cfg) su qs)) st' /\
    units_rel l' (fst (spec_run (cf_single cfg) su qs)).

(* PROVED for [req_ok] / [body_ok]: a message of FC 1-6, 15, 16, 22, 23 whose fields fit, or any PDU of at most 253
   bytes whose function code 1..127 is not in ServerDecoder's table (answered with exception 01, nothing changes).
   Missing w.r.t. the full statement: the request classes without a model in Exec.v and a semantics in ExecSpec.v
   (FC 20, 21, 24, 43; FC 7, 8, 11, 12, 17 are the subject of C09_e2e_ext.v); no hypothesis on chunking, layouts,
   ids, quantities or the front-end had to be added. *)
Theorem C09_e2e_tcp : forall sk cfg eof (l : units slavectx) (su : sunits) (qs : list e2e_req) (chunks : list bytes),
  In sk tcp_fes ->
  units_rel l su ->                                        (* stores abstract to su; C04 invariant; 16-bit cells *)
  Forall (req_ok sk cfg (u_keys slavectx l)) qs ->         (* ids in range, FC 1-6/15/16/22/23 or unassigned, unit served *)
  concat (eff_chunks eof chunks) = concat (map req_adu qs) ->      (* ANY division into reads *)
  exists l' st',
    tcp_server_run sk cfg eof l chunks = result l' (snd (spec_run (cf_single cfg) su qs)) st' /\
    units_rel l' (fst (spec_run (cf_single cfg) su qs)).
Proof.
  intros sk cfg eof l su qs chunks Hsk Hrel Hok Hcat. pose proof (tcp_fe_ok sk Hsk) as Hfe.
  set (P := req_ok sk cfg (u_keys slavectx l)).
  assert (Hitems : Forall (item KTcp (framer_cfg sk cfg l) P) qs) by (eapply Forall_impl; [|exact Hok]; now left).
  destruct (stream_spec_g KTcp packet_of tcp_adu sk cfg P _ tcp_pk_ok Hfe (fun _ H => H) qs l su eq_refl Hrel Hitems)
    as (l' & Hall & Hrel' & _).
  destruct (feed_tcp (framer_cfg sk cfg l) qs (eff_chunks eof chunks)) as (st' & Hfeed); [|exact Hcat|].
  { apply (stream_frames KTcp _ P); [now left| |exact Hitems].
    intros q Hq. destruct (req_ok_wire _ _ _ q Hq). auto. }
  exists l', st'. split; [|exact Hrel'].
  eapply (run_reads_feed _ (handle_one packet_of sk cfg)); try reflexivity; [|exact Hfeed|exact Hall].
  intros s d s' b. apply handle_one_keys, Hfe.
Qed.
Print Assumptions C09_e2e_tcp.

(* with the abstract states computed from the datastores: hypotheses checkable by evaluation *)
Theorem C09_e2e_tcp_stores : forall sk cfg eof (l : units slavectx) (qs : list e2e_req) (chunks : list bytes),
  In sk tcp_fes ->
  Forall (fun p => store_ok (snd p)) l ->
  Forall (req_ok sk cfg (u_keys slavectx l)) qs ->
  concat (eff_chunks eof chunks) = concat (map req_adu qs) ->
  exists l' st',
    tcp_server_run sk cfg eof l chunks = result l' (snd (spec_run (cf_single cfg) (abs_units l) qs)) st' /\
    units_rel l' (fst (spec_run (cf_single cfg) (abs_units l) qs)).
Proof. intros sk cfg eof l qs chunks Hsk Hl. apply C09_e2e_tcp; [exact Hsk|now apply units_rel_abs]. Qed.
Print Assumptions C09_e2e_tcp_stores.

(* C01 -> C04: the decoded request object carries exactly the attributes ExecView.decode_attrs assumes *)
Theorem C09_e2e_decode_attrs : forall m w, wreq_of_msg m = Some w -> spec_wf m = true ->
  exists o r, py_decode true (spec_pdu m) = Ok o /\ obj_fc o = Ok (wfc w) /\
              req_of_obj o = Some r /\ ExecView.decode_attrs w = Ok r.
Proof. exact decode_request. Qed.
Print Assumptions C09_e2e_decode_attrs.

(* … and a PDU with an unassigned function code decodes to IllegalFunctionRequest *)
Theorem C09_e2e_decode_body : forall b w, body_ok b w ->
  exists o r, py_decode true (sreq_pdu b) = Ok o /\ obj_fc o = Ok (wfc w) /\
              req_of_obj o = Some r /\ ExecView.decode_attrs w = Ok r.
Proof. exact decode_body. Qed.
Print Assumptions C09_e2e_decode_body.

(* C04 -> C01: a response whose spec view is s becomes an object that stands for the spec message of s *)
Theorem C09_e2e_response_object : forall o s,
  ExecView.view GenExec.code o = Some s -> spec_wf (spec_response_msg s) = true ->
  exists ro, obj_of_rsp o = Some ro /\ CorrPdu.abs ro = Some (spec_response_msg s) /\
             CorrPdu.mem_cls (class_of ro) CorrPdu.conforming_encode = true /\ exc_code_of ro = sexc_code s.
Proof. exact response_object. Qed.
Print Assumptions C09_e2e_response_object.

(* ExecSpec -> PduSpec: with 16-bit cells every response of the data model is a well-formed message,
   and the invariant is kept *)
Theorem C09_e2e_response_wf : forall m w s, wreq_of_msg m = Some w -> spec_wf m = true -> cells_ok s ->
  spec_wf (spec_response_msg (snd (spec_exec s w))) = true /\ cells_ok (fst (spec_exec s w)).
Proof. intros m w s Hw Hwf Hs. split; [exact (response_wf m w s Hw Hwf Hs)|exact (exec_cells_ok m w s Hw Hwf Hs)]. Qed.
Print Assumptions C09_e2e_response_wf.

(* one delivered request: the one specified response packet; the addressed store steps as the data model *)
Theorem C09_e2e_one_request : forall sk cfg l su q,
  In sk tcp_fes -> units_rel l su -> req_ok sk cfg (u_keys slavectx l) q ->
  exists s s' b l',
    su_get su (spec_key (cf_single cfg) (q_uid q)) = Some s /\
    spec_answer s q = Some (s', b) /\
    handle_one packet_of sk cfg l (delivery_of q) = Ok (l', b) /\
    units_rel l' (su_set su (spec_key (cf_single cfg) (q_uid q)) s') /\
    u_keys slavectx l' = u_keys slavectx l.
Proof.
  intros sk cfg l su q Hsk.
  exact (handle_one_spec_g packet_of tcp_adu delivery_of sk cfg l su q tcp_pk_ok (tcp_fe_ok sk Hsk)).
Qed.
Print Assumptions C09_e2e_one_request.

(* non-vacuity: one context (single mode); write register 2 := 0x1234 to unit 1, read registers 1..3 from unit 17,
   read coils 8..10 (outside the 10 configured coils), a PDU with the unassigned function code 0x41; cut 3 bytes into
   the first MBAP header and in the middle of the second frame, with an empty read in between (eof = false). *)
Definition nv_block : block := BSeq {| sb_addr := 0; sb_vals := [0; 0; 0; 0; 0; 0; 0; 0; 0; 0]; sb_def := 0 |}.
Definition nv_ctx : slavectx :=
  {| cx_zero := true; cx_slots := [("c", 0%nat); ("d", 1%nat); ("h", 2%nat); ("i", 3%nat)];
     cx_blocks := [nv_block; nv_block; nv_block; nv_block] |}.
Definition nv_cfg : scfg := {| cf_single := true; cf_bcast := false; cf_ignore := false |}.
Definition nv_reqs : list e2e_req :=
  [{| q_tid := 4660; q_pid := 0; q_uid := 1; q_body := QMsg (MWriteRegReq 2 4660) |};
   {| q_tid := 2; q_pid := 0; q_uid := 17; q_body := QMsg (MReadHoldingReq 1 3) |};
   {| q_tid := 65535; q_pid := 7; q_uid := 1; q_body := QMsg (MReadCoilsReq 8 3) |};
   {| q_tid := 9; q_pid := 0; q_uid := 1; q_body := QRaw 65 [1; 2]%N |}].
Definition nv_stream : bytes := concat (map req_adu nv_reqs).
Definition nv_chunks : list bytes := [firstn 3 nv_stream; []; firstn 15 (skipn 3 nv_stream); skipn 18 nv_stream].

Example C09_e2e_nonvacuous :
  In GenServer.aio_tcp tcp_fes /\
  Forall (fun p => store_ok (snd p)) [(0, nv_ctx)] /\
  Forall (req_ok GenServer.aio_tcp nv_cfg (u_keys slavectx [(0, nv_ctx)])) nv_reqs /\
  concat (eff_chunks false nv_chunks) = concat (map req_adu nv_reqs) /\
  e_out (tcp_server_run GenServer.aio_tcp nv_cfg false [(0, nv_ctx)] nv_chunks) =
    [18; 52; 0; 0; 0; 6; 1; 6; 0; 2; 18; 52;                    (* echo of the write, tid 0x1234, unit 1 *)
     0; 2; 0; 0; 0; 9; 17; 3; 6; 0; 0; 18; 52; 0; 0;            (* registers 1..3 = 0, 0x1234, 0, unit 17 *)
     255; 255; 0; 0; 0; 3; 1; 129; 2;                           (* exception 02, protocol id 0 *)
     0; 9; 0; 0; 0; 3; 1; 193; 1]%N /\                          (* unassigned function 0x41: exception 01 *)
  snd (spec_run true (abs_units [(0, nv_ctx)]) nv_reqs) =
    e_out (tcp_server_run GenServer.aio_tcp nv_cfg false [(0, nv_ctx)] nv_chunks).
Proof.
  split; [cbv [tcp_fes]; cbn [In]; tauto|].
  split. { constructor; [|constructor]. split.
           - intros t; destruct t; eexists; (split; [reflexivity|cbn; lia]).
           - repeat constructor; unfold u16v; lia. }
  split. { unfold nv_reqs. repeat (apply Forall_cons || apply Forall_nil);
           (split; [cbn; lia|]; split; [cbn; lia|]; split; [cbn; lia|];
            split; [eexists; cbn; repeat split; try reflexivity; lia | split; [reflexivity | cbn; tauto]]). }
  split; [vm_compute; reflexivity|].
  (* the server is run once *)
  pattern (tcp_server_run GenServer.aio_tcp nv_cfg false [(0, nv_ctx)] nv_chunks). vm_compute. split; reflexivity.
Qed.
