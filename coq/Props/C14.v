(* Props/C14.v — Predicted reply length equals the length the server really sends.
   Each theorem is `exact` or a short derivation from proofs/Sizes_proofs.v.  All are about the expression trees of
   Generated/GenSizes.v, which gen/gen_sizes.py regenerates on every run from the get_response_pdu_size bodies of
   bit_read_message.py, bit_write_message.py, register_read_message.py, register_write_message.py, diag_message.py
   and from _set_adu_size / _calculate_response_length / _calculate_exception_length / execute / _recv of
   transaction.py.  Quantities are unbounded Z. *)
From PM.theories Require Import Base Expr Sizes.
From PM.Generated Require Import GenSizes.
From PM.proofs Require Import Base_proofs Sizes_proofs.
Open Scope string_scope.
Open Scope list_scope.
Open Scope Z_scope.

(* FC 1-6, 8/sub, 15, 16, 23, every quantity, outside the three defects stated below *)
Theorem C14_pdu_size : forall q,
  request_ok q = true -> known_defect q = false -> predicting q = true ->
  predicted_pdu_size (class_of q) (attrs_of q) = spec_response_pdu_len q.
Proof. exact pdu_size_all. Qed.
Print Assumptions C14_pdu_size.

Theorem C14_read_bits_size : forall cls n,
  cls = "ReadCoilsRequest" \/ cls = "ReadDiscreteInputsRequest" ->
  predicted_pdu_size cls (attrs n 0 MNone) = Some (1 + 1 + (n + 7) / 8).
Proof. exact read_bits_size. Qed.
Print Assumptions C14_read_bits_size.

Theorem C14_read_registers_size : forall cls n,
  cls = "ReadHoldingRegistersRequest" \/ cls = "ReadInputRegistersRequest" ->
  predicted_pdu_size cls (attrs n 0 MNone) = Some (1 + 1 + 2 * n).
Proof. intros cls n [-> | ->]; reflexivity. Qed.
Print Assumptions C14_read_registers_size.

(* mask write (FC 22) does not predict: the property does not constrain it *)
Theorem C14_mask_write_not_predicting : forall a, predicted_pdu_size (class_of QMaskWrite) a = None.
Proof. reflexivity. Qed.
Print Assumptions C14_mask_write_not_predicting.

(* the full statement, kept visible; it is FALSE for the unchanged tree (three witnesses) *)
Definition C14_full_statement : Prop := forall q,
  request_ok q = true -> predicting q = true ->
  predicted_pdu_size (class_of q) (attrs_of q) = spec_response_pdu_len q.

Theorem C14_pdu_size_refuted : ~ C14_full_statement.
Proof. intro H. specialize (H QPlusGet eq_refl eq_refl). discriminate H. Qed.
Print Assumptions C14_pdu_size_refuted.

Theorem C14_modbus_plus_get_refuted :
  predicted_pdu_size (class_of QPlusGet) (attrs_of QPlusGet) = Some 117 /\ spec_response_pdu_len QPlusGet = Some 115.
Proof. split; reflexivity. Qed.
Print Assumptions C14_modbus_plus_get_refuted.

Theorem C14_modbus_plus_clear_refuted :
  predicted_pdu_size (class_of QPlusClear) (attrs_of QPlusClear) = Some 7 /\ spec_response_pdu_len QPlusClear = Some 5.
Proof. split; reflexivity. Qed.
Print Assumptions C14_modbus_plus_clear_refuted.

Theorem C14_listen_only_refuted :
  predicted_pdu_size (class_of QDiagListenOnly) (attrs_of QDiagListenOnly) = Some 5
  /\ spec_response_pdu_len QDiagListenOnly = None.
Proof. split; reflexivity. Qed.
Print Assumptions C14_listen_only_refuted.

Theorem C14_adu_overhead : forall f p,
  serial f = true -> p <> 0 ->
  expected_response_length f (Some p) = Some (spec_adu_len f p).
Proof. exact adu_overhead. Qed.
Print Assumptions C14_adu_overhead.

(* incl. TCP 7 (MBAP), although execute() does not use the prediction there *)
Theorem C14_base_adu_sizes : forall f p,
  calc_response_length f p = Some (base_adu_size f + p) /\
  base_adu_size f = spec_adu_len f 0.
Proof. intros f p. split; [apply response_length_all | destruct f; reflexivity]. Qed.
Print Assumptions C14_base_adu_sizes.

Theorem C14_exception_len : forall f,
  calc_exception_length f = Some (spec_adu_len f exception_pdu_len).
Proof. intros f. destruct f; reflexivity. Qed.
Print Assumptions C14_exception_len.

Theorem C14_reads_exactly : forall f p fc mbap,
  stream_framing f = true -> 1 <= p -> 0 <= fc < 128 ->
  exists m r,
    recv_plan f (expected_response_length f (Some p)) (spec_adu_len f p) fc mbap
      = ([Some m; Some r], RecvDone (Some (spec_adu_len f p)))
    /\ 0 < m /\ 0 <= r /\ m + r = spec_adu_len f p.
Proof.
  intros f p fc mbap Hs Hp Hfc. pose proof (reads_exactly f p fc mbap Hs Hp) as H.
  now replace (fc <? 128) with true in H by lia.
Qed.
Print Assumptions C14_reads_exactly.

Theorem C14_reads_exactly_exception : forall f p fc mbap,
  stream_framing f = true -> 1 <= p -> 128 <= fc ->
  exists m r,
    recv_plan f (expected_response_length f (Some p)) (spec_adu_len f exception_pdu_len) fc mbap
      = ([Some m; Some r], RecvDone (Some (spec_adu_len f exception_pdu_len)))
    /\ 0 < m /\ 0 <= r /\ m + r = spec_adu_len f exception_pdu_len.
Proof.
  intros f p fc mbap Hs Hp Hfc. pose proof (reads_exactly f p fc mbap Hs Hp) as H.
  now replace (fc <? 128) with false in H by lia.
Qed.
Print Assumptions C14_reads_exactly_exception.

Theorem C14_end_to_end : forall q f fc mbap p,
  request_ok q = true -> known_defect q = false -> predicting q = true ->
  stream_framing f = true -> 0 <= fc < 128 -> spec_response_pdu_len q = Some p ->
  exists m r,
    recv_plan f (expected_response_length f (predicted_pdu_size (class_of q) (attrs_of q)))
              (spec_adu_len f p) fc mbap
      = ([Some m; Some r], RecvDone (Some (spec_adu_len f p)))
    /\ 0 < m /\ 0 <= r /\ m + r = spec_adu_len f p.
Proof.
  intros q f fc mbap p Hok Hd Hp Hs Hfc Hspec. rewrite (pdu_size_all q Hok Hd Hp), Hspec.
  exact (C14_reads_exactly f p fc mbap Hs (spec_len_pos q p Hok Hspec) Hfc).
Qed.
Print Assumptions C14_end_to_end.

Theorem C14_tls_reads_exactly : forall p fc mbap,
  1 <= p ->
  recv_plan FTls (expected_response_length FTls (Some p)) (spec_adu_len FTls p) fc mbap
  = ([Some p; Some 0], RecvDone (Some p)).
Proof.
  intros p fc mbap Hp. rewrite adu_overhead by (auto; lia). sz_simpl.
  replace (Z.min (Z.max p 0) p) with p by lia.
  replace (p =? p) with true by lia. cbn [negb]. cbv beta iota.
  replace (p =? 0) with false by lia. apply plan_eq; lia.
Qed.
Print Assumptions C14_tls_reads_exactly.

(* TLS, exception reply: the client asks for the p predicted bytes at once and rejects the 2 it gets
   (finding F-C14-tls-exception-reply) *)
Theorem C14_tls_exception_refuted : forall p fc mbap,
  2 < p ->
  recv_plan FTls (expected_response_length FTls (Some p)) (spec_adu_len FTls exception_pdu_len) fc mbap
  = ([Some p], RecvRaises InvalidMessageExc)
  /\ spec_adu_len FTls exception_pdu_len < p.
Proof.
  intros p fc mbap Hp. split; [|unfold spec_adu_len, exception_pdu_len; lia].
  rewrite adu_overhead by (auto; lia). sz_simpl.
  replace (Z.min (Z.max p 0) 2) with 2 by lia.
  replace (2 =? p) with false by lia. reflexivity.
Qed.
Print Assumptions C14_tls_exception_refuted.

(* esc = the escaped data bytes of the frame (finding F-C14-binary-escape) *)
Theorem C14_binary_escape_refuted : forall p esc fc mbap,
  1 <= p -> 0 < esc -> 0 <= fc < 128 ->
  asked_sum (fst (recv_plan FBinary (expected_response_length FBinary (Some p))
                            (spec_adu_len FBinary p + esc) fc mbap))
  = Some (spec_adu_len FBinary p)
  /\ spec_adu_len FBinary p < spec_adu_len FBinary p + esc.
Proof.
  intros p esc fc mbap Hp He Hfc. split; [|lia]. pose proof (spec_adu_len_mono FBinary 1 p Hp) as Hle.
  destruct (recv_plan_stream FBinary (expected_response_length FBinary (Some p)) (spec_adu_len FBinary p + esc)
              fc mbap eq_refl) as (m & _ & ->); [lia|].
  rewrite adu_overhead by (auto; lia). replace (fc <? 128) with true by lia. cbn [fst asked_sum]. f_equal. lia.
Qed.
Print Assumptions C14_binary_escape_refuted.

(* TCP: the 8-byte read is the MBAP header + function code; the prediction is not used *)
Theorem C14_tcp_reads_exactly : forall p fc pred,
  1 <= p -> 0 <= fc < 128 ->
  recv_plan FSocket (expected_response_length FSocket pred) (spec_adu_len FSocket p) fc (1 + p)
  = ([Some 8; Some (p - 1)], RecvDone (Some (spec_adu_len FSocket p))).
Proof.
  intros p fc pred Hp Hfc. rewrite (recv_plan_table FSocket 8 _ _ _ _ eq_refl) by (unfold spec_adu_len; lia).
  replace (fc <? 128) with true by lia. apply plan_eq; unfold spec_adu_len, socket_hsize; lia.
Qed.
Print Assumptions C14_tcp_reads_exactly.

Theorem C14_tcp_reads_exactly_exception : forall fc pred mbap,
  128 <= fc ->
  recv_plan FSocket (expected_response_length FSocket pred) (spec_adu_len FSocket exception_pdu_len) fc mbap
  = ([Some 8; Some 1], RecvDone (Some (spec_adu_len FSocket exception_pdu_len))).
Proof.
  intros fc pred mbap Hfc. rewrite (recv_plan_table FSocket 8 _ _ _ _ eq_refl) by (cbn; lia).
  now replace (fc <? 128) with false by lia.
Qed.
Print Assumptions C14_tcp_reads_exactly_exception.

(* GenSizes.diag_table: every diagnostic request class of diag_message.py, enumerated from the source on every run;
   a new class there makes this theorem fail *)
Theorem C14_diag_all_classes : forall sub cls,
  In (sub, cls) diag_table ->
  class_of (diag_request sub) = cls /\ In sub spec_diag_subs /\
  (known_defect (diag_request sub) = false ->
   predicted_pdu_size cls (attrs_of (diag_request sub)) = spec_response_pdu_len (diag_request sub)).
Proof.
  intros sub cls Hin. destruct diag_table_checked as [Hall Hsubs].
  rewrite forallb_forall in Hall. specialize (Hall _ Hin).
  unfold diag_row_ok in Hall. cbn [fst snd] in Hall.
  apply andb_prop in Hall as [Hall Hpred].
  apply andb_prop in Hall as [Hall _].
  apply andb_prop in Hall as [Hcls _].
  split; [|split].
  - apply String.eqb_eq. exact Hcls.
  - rewrite <- Hsubs. exact (in_map fst _ _ Hin).
  - intros Hd. rewrite Hd in Hpred. exact (option_eqb_Z _ _ Hpred).
Qed.
Print Assumptions C14_diag_all_classes.

Theorem C14_diag_table_complete : map fst diag_table = spec_diag_subs.
Proof. exact (proj2 diag_table_checked). Qed.
Print Assumptions C14_diag_table_complete.

Example C14_nonvacuous :
  request_ok (QReadCoils 19) = true /\ known_defect (QReadCoils 19) = false /\ predicting (QReadCoils 19) = true
  /\ predicted_pdu_size (class_of (QReadCoils 19)) (attrs_of (QReadCoils 19)) = Some 5
  /\ stream_framing FAscii = true
  /\ fst (recv_plan FAscii (expected_response_length FAscii (Some 5)) 17 1 0) = [Some 5; Some 12].
Proof. repeat split. Qed.
