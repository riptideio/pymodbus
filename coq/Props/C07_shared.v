(* C07 add-on — EVERY entry of the shared-state inventory (Generated/GenShared.v) is an audited entry of
   theories/SharedAudit.v (Shared_proofs.inventory_audited); the statements below, about the files C07
   is anchored in and the base modules, follow without using the relevance premise. *)
From PM.theories Require Import Base SharedAudit.
From PM.Generated Require Import GenShared.
From PM.proofs Require Import Shared_proofs.
Import ListNotations.
Open Scope string_scope.
Open Scope list_scope.

Theorem C07_shared_state_audited : forall e, In e shared_state ->
  relevant anchors common_files "C07" e = true -> mem_entry e audited = true.
Proof. intros e He _. exact (inventory_audited e He). Qed.
Print Assumptions C07_shared_state_audited.

Theorem C07_shared_state_none_unaudited : unaudited_for shared_state anchors common_files "C07" = [].
Proof. exact (shared_ok "C07"). Qed.
Print Assumptions C07_shared_state_none_unaudited.

(* the audit is not stale: every audited entry still exists in the source *)
Example C07_shared_nonvacuous : forallb (fun e => mem_entry e shared_state) audited = true /\ (20 <= length shared_state)%nat.
Proof. exact inventory_nonvacuous. Qed.
Print Assumptions C07_shared_nonvacuous.
