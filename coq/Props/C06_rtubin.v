(* Props/C06_rtubin.v — C06, RTU / binary half: chunking independence.  The general theorems take the lemmas of
   proofs/FrB_*_proofs.v (C06_rtu_loop_terminates is derived here from rtu_recv_run); the witnesses on concrete
   frames are proved here, by evaluation of the models. *)
From PM.theories Require Import Base Expr Struct FrBCode Crc FrBCommon FrRtu FrBin FrSpecB.
From PM.Generated Require Import GenFramerB.
From PM.proofs Require Import FrB_witness_proofs FrB_rtu_proofs FrB_bin_proofs FrB_rtu_client_proofs.
Open Scope list_scope.
Open Scope N_scope.

(* the full statement, kept visible.  It holds for the classes with a prefix-stable, correct size rule (C06_rtu);
   Read Device Identification responses (C06_rtu_mei_refuted) and frames whose size oracle is wrong
   (C03_rtu_size_oracle_refuted) are counterexamples. *)
Definition C06_full_statement_rtu : Prop :=
  forall (dec : bytes -> dres) (frames : list (N * bytes)) (chunks : list bytes),
    (forall u p, In (u, p) frames -> dec p = DMsg /\ wfb (u :: p) = true) ->
    concat chunks = concat (map (fun f => spec_adu_rtu (fst f) (snd f)) frames) ->
    let cfg := {| cf_dec := dec; cf_rules := server_decoder; cf_units := []; cf_single := true |} in
    deliveries (rtu_feed cfg rtu_init chunks) = map (fun f => (snd f, Z.of_N (fst f))) frames.

(* RTU: full chunking independence for every class with a prefix-stable size rule (fixed size or byte count at a
   fixed position: all request classes, all responses except FIFO and MEI); the cuts may be anywhere, reads may be
   empty or hold several frames; frames of units not served are skipped.  A frame is (served?, (unit, PDU)). *)
Theorem C06_rtu : forall cfg chunks (R : list frame) st,
  r_buf st = [] -> (r_hdr st = hdr_empty \/ r_hdr st = r_hdr rtu_init) ->
  Forall (vf cfg) R -> concat chunks = stream R ->
  rtu_feed_dels cfg st chunks = (msgs R, map (fun _ => FOk) chunks).
Proof. exact rtu_chunked_sync. Qed.
Print Assumptions C06_rtu.

Theorem C06_rtu_from_any_point : forall cfg chunks R b st,
  r_buf st = b -> Forall (vf cfg) R -> tail_ok b R -> hdr_for R (r_hdr st) ->
  stream R = b ++ concat chunks ->
  rtu_feed_dels cfg st chunks = (msgs R, map (fun _ => FOk) chunks).
Proof. exact rtu_chunked. Qed.
Print Assumptions C06_rtu_from_any_point.

Theorem C06_rtu_drain : forall cfg fs fuel nxt q h acc,
  Forall (vf cfg) fs -> Forall (vf cfg) nxt -> tail_ok q nxt ->
  hdr_for (fs ++ nxt) h -> (length fs < fuel)%nat ->
  exists h', rtu_loop fuel cfg {| r_buf := stream fs ++ q; r_hdr := h |} acc
             = ({| r_buf := q; r_hdr := h' |}, acc ++ msgs fs, FOk) /\ hdr_for nxt h'.
Proof. exact rtu_loop_drain. Qed.
Print Assumptions C06_rtu_drain.

(* the while loop terminates: the model's fuel is never exhausted *)
Theorem C06_rtu_loop_terminates : forall cfg st chunk, known_rules (cf_rules cfg) ->
  wfb (r_buf st ++ chunk) = true -> snd (rtu_recv cfg st chunk) <> FOutOfFuel.
Proof.
  intros cfg st chunk Hk Hw. destruct (rtu_recv_run cfg st chunk Hk Hw) as (pre & new & st0 & st' & x & _ & _ & _ & S & ->).
  exact (rtu_stop_fuel _ _ _ _ S).
Qed.
Print Assumptions C06_rtu_loop_terminates.

(* on ANY chunk a call lets escape only ModbusIOException (decoder returned None) or what decoder.decode itself
   raised.  [table_simple] excludes ReadDeviceInformationResponse (C06_rtu_mei_refuted: struct.error, then KeyError)
   and ReadFifoQueueResponse (not prefix-stable, can ask for 64 KB: C11_rtu_fifo_extent_refuted). *)
Theorem C06_rtu_raises_only_io : forall cfg st chunk st' ds x,
  table_simple (cf_rules cfg) = true -> wfb (r_buf st ++ chunk) = true -> rtu_inv st ->
  rtu_recv cfg st chunk = (st', ds, x) ->
  exit_ok cfg x /\ x <> FOutOfFuel /\ rtu_inv st' /\ exists pre, r_buf st ++ chunk = pre ++ r_buf st'.
Proof. exact rtu_raises_only_io. Qed.
Print Assumptions C06_rtu_raises_only_io.

Theorem C06_rtu_one_frame_clean : forall cfg st chunk st' ds x,
  table_simple (cf_rules cfg) = true -> wfb (r_buf st ++ chunk) = true -> rtu_inv st ->
  ~ two_frames (r_buf st ++ chunk) ->
  rtu_recv cfg st chunk = (st', ds, x) -> x <> FOk -> ds = [].
Proof. exact rtu_one_frame_clean. Qed.
Print Assumptions C06_rtu_one_frame_clean.

Example C06_nonvacuous :
  let cfg := {| cf_dec := fun _ => DMsg; cf_rules := server_decoder; cf_units := [1%Z]; cf_single := false |} in
  Forall (vf cfg) [(true, (1, [3; 0; 1; 0; 2])); (false, (9, [3; 0; 1; 0; 2])); (true, (1, [16; 0; 1; 0; 1; 2; 123; 125]))].
Proof. cbv zeta. repeat constructor; apply valid_frame_example. Qed.

(* the input of finding F-C06-rtu-one-frame-per-call: both frames are delivered *)
Theorem C06_rtu_pipelined_fixed :
  let fa := spec_adu_rtu 1 pdu_a in let fb := spec_adu_rtu 1 pdu_b in
  deliveries (rtu_feed cfg_server rtu_init [fa; fb]) = [(pdu_a, 1%Z); (pdu_b, 1%Z)] /\
  deliveries (rtu_feed cfg_server rtu_init [fa ++ fb]) = [(pdu_a, 1%Z); (pdu_b, 1%Z)] /\
  deliveries (rtu_feed cfg_server rtu_init [fa ++ firstn 3 fb; skipn 3 fb]) = [(pdu_a, 1%Z); (pdu_b, 1%Z)].
Proof. cbv zeta. repeat apply conj; vm_compute; reflexivity. Qed.
Print Assumptions C06_rtu_pipelined_fixed.

(* the input of finding #19, RTU part: a frame for a unit not served is skipped *)
Theorem C06_rtu_foreign_unit_skipped :
  let cfg := {| cf_dec := fun _ => DMsg; cf_rules := server_decoder; cf_units := [1%Z]; cf_single := false |} in
  let fa := spec_adu_rtu 1 pdu_a in let ff := spec_adu_rtu 9 pdu_b in
  deliveries (rtu_feed cfg rtu_init [fa ++ ff ++ fa]) = [(pdu_a, 1%Z); (pdu_a, 1%Z)] /\
  exits (rtu_feed cfg rtu_init [fa ++ ff ++ fa]) = [FOk].
Proof. cbv zeta. repeat apply conj; vm_compute; reflexivity. Qed.
Print Assumptions C06_rtu_foreign_unit_skipped.

(* finding F-C06-rtu-mei-partial-raises: a Read Device Identification response cut inside its object list raises
   struct.error, then KeyError for ever *)
Theorem C06_rtu_mei_refuted :
  let fa := spec_adu_rtu 1 [3; 2; 0; 7] in
  let mei := spec_adu_rtu 1 [43; 14; 1; 1; 0; 0; 1; 0; 3; 65; 66; 67] in
  rtu_feed cfg_client rtu_init [fa; mei] =
    (rtu_reset rtu_init, [([3; 2; 0; 7], 1%Z); ([43; 14; 1; 1; 0; 0; 1; 0; 3; 65; 66; 67], 1%Z)], [FOk; FOk]) /\
  exits (rtu_feed cfg_client rtu_init [fa; firstn 9 mei; skipn 9 mei; fa; fa]) =
    [FOk; FExn StructError; FExn KeyError; FExn KeyError; FExn KeyError] /\
  deliveries (rtu_feed cfg_client rtu_init [fa; firstn 9 mei; skipn 9 mei; fa; fa]) = [([3; 2; 0; 7], 1%Z)].
Proof. cbv zeta. repeat apply conj; vm_compute; reflexivity. Qed.
Print Assumptions C06_rtu_mei_refuted.

(* binary, strongest true statement: every read completes any number of whole delimiter-free frames and leaves at
   most one byte of the next one buffered ([bopr]).  A read that ends two or more bytes into a frame, frames containing
   a delimiter and frames behind a frame for a unit not served are counterexamples (below, and C03_binary_refuted). *)
Theorem C06_binary_partial : forall cfg chunks b frames st,
  b_buf st = b ->
  Forall (fun f => valid_bframe cfg (fst f) (snd f)) frames ->
  bopr b frames chunks ->
  bin_feed_dels cfg st chunks = (bmsgs frames, map (fun _ => FOk) chunks).
Proof. exact bin_chunked. Qed.
Print Assumptions C06_binary_partial.

Theorem C06_binary_drain : forall cfg fs fuel q h acc,
  Forall (fun f => valid_bframe cfg (fst f) (snd f)) fs -> (length q <= 1)%nat -> (length fs < fuel)%nat ->
  exists h', bin_loop fuel cfg {| b_buf := bstream fs ++ q; b_hdr := h |} acc
             = ({| b_buf := q; b_hdr := h' |}, acc ++ bmsgs fs, FOk).
Proof. exact bin_loop_drain. Qed.
Print Assumptions C06_binary_drain.

Example C06_binary_nonvacuous :
  let f := spec_adu_binary 1 [3; 0; 1; 0; 2] in
  bopr [] [(1, [3; 0; 1; 0; 2]); (1, [3; 0; 1; 0; 2]); (1, [3; 0; 1; 0; 2])] [[]; f ++ firstn 1 f; skipn 1 f ++ f; []].
Proof. exact bopr_example. Qed.

(* the while loop terminates: the model's fuel S(|buffer|) is never exhausted *)
Theorem C06_binary_loop_terminates : forall cfg st chunk, snd (bin_recv cfg st chunk) <> FOutOfFuel.
Proof. exact bin_recv_no_fuel_out. Qed.
Print Assumptions C06_binary_loop_terminates.

(* finding F-C06-binary-incomplete-reset: a read ending inside a frame resets the receiver *)
Theorem C06_binary_refuted :
  let f := spec_adu_binary 1 pdu_a in
  no_delim (with_crc (1 :: pdu_a)) = true /\
  deliveries (bin_feed cfg_server bin_init [f]) = [(pdu_a, 1%Z)] /\
  deliveries (bin_feed cfg_server bin_init [firstn 4 f; skipn 4 f]) = [].
Proof. cbv zeta. repeat apply conj; vm_compute; reflexivity. Qed.
Print Assumptions C06_binary_refuted.

(* the input of finding F-C06-binary-advance-skips-byte: all frames are delivered *)
Theorem C06_binary_pipelined_fixed :
  let fa := spec_adu_binary 1 pdu_a in let fb := spec_adu_binary 1 pdu_b in
  no_delim (with_crc (1 :: pdu_a)) = true /\ no_delim (with_crc (1 :: pdu_b)) = true /\
  deliveries (bin_feed cfg_server bin_init [fa; fb]) = [(pdu_a, 1%Z); (pdu_b, 1%Z)] /\
  deliveries (bin_feed cfg_server bin_init [fa ++ fb]) = [(pdu_a, 1%Z); (pdu_b, 1%Z)] /\
  deliveries (bin_feed cfg_server bin_init [fa ++ fb ++ firstn 1 fa; skipn 1 fa]) = [(pdu_a, 1%Z); (pdu_b, 1%Z); (pdu_a, 1%Z)].
Proof. cbv zeta. repeat apply conj; vm_compute; reflexivity. Qed.
Print Assumptions C06_binary_pipelined_fixed.

(* finding F-C06-binary-foreign-unit-resets-read: a frame for a unit that is not served resets the buffer *)
Theorem C06_binary_foreign_unit_refuted :
  let cfg := {| cf_dec := fun _ => DMsg; cf_rules := server_decoder; cf_units := [1%Z]; cf_single := false |} in
  let fa := spec_adu_binary 1 pdu_a in let ff := spec_adu_binary 9 pdu_b in
  no_delim (with_crc (9 :: pdu_b)) = true /\
  deliveries (bin_feed cfg bin_init [fa ++ ff ++ fa]) = [(pdu_a, 1%Z)] /\
  deliveries (bin_feed cfg bin_init [fa; ff; fa]) = [(pdu_a, 1%Z); (pdu_a, 1%Z)].
Proof. cbv zeta. repeat apply conj; vm_compute; reflexivity. Qed.
Print Assumptions C06_binary_foreign_unit_refuted.
