(* Props/C06_tcpascii.v — C06 (framing is independent of the chunking), half for the socket
   and ASCII framers.  [feed recv s chunks] = (final state, all deliveries, true iff no call
   raised or ran out of fuel).  Frames, chunk lists and the decoder are universally
   quantified; empty chunks are ordinary elements of the list; a stream may mix frames for served
   and for foreign units ([stream_frame]), the latter with PDUs that do not decode. *)
From PM.theories Require Import Base Expr Struct FrBaseA Lrc FrTcp FrAscii FrSpecA.
From PM.Generated Require Import GenFramerA.
From PM.proofs Require Import FrA_stream_proofs FrA_tcp_proofs FrA_ascii_proofs.
Open Scope list_scope.
Open Scope Z_scope.

Theorem C06_ascii : forall (dec : bytes -> dres) (c : cfg) (frames : list frame) (chunks : list bytes),
  Forall (stream_frame KAscii dec c) frames ->
  concat chunks = concat (map (spec_adu KAscii) frames) ->
  exists s', feed (a_recv base lrc ascii dec c) (a_init ascii) chunks
             = (s', ref_deliveries KAscii c frames, true).
Proof. intros dec c. exact (framer_chunking (ascii_framer_ok dec c)). Qed.
Print Assumptions C06_ascii.

(* TCP: the FULL statement (no hypothesis on the cut points) — the socket framer waits for a
   complete MBAP header and skips foreign-unit frames with advanceFrame *)
Theorem C06_tcp : forall (dec : bytes -> dres) (c : cfg) (frames : list frame) (chunks : list bytes),
  Forall (stream_frame KTcp dec c) frames ->
  concat chunks = concat (map (spec_adu KTcp) frames) ->
  exists s', feed (t_recv base tcp dec c) (t_init tcp) chunks = (s', ref_deliveries KTcp c frames, true).
Proof. intros dec c. exact (framer_chunking (tcp_framer_ok dec c)). Qed.
Print Assumptions C06_tcp.

(* a read ending exactly 7 bytes into a frame (complete header, no PDU byte), then the PDU: delivered *)
Theorem C06_tcp_fixed_witness :
  feed (t_recv base tcp tcp_refute_dec tcp_refute_cfg) (t_init tcp) tcp_refute_chunks =
  (t_init tcp, [spec_delivery KTcp tcp_refute_frame], true).
Proof. vm_compute. reflexivity. Qed.
Print Assumptions C06_tcp_fixed_witness.

(* a served frame, a foreign-unit frame with an undecodable PDU and another served frame, cut 3 bytes
   into the first header, with an empty read, and inside the third *)
Example C06_nonvacuous :
  let f1 := {| f_tid := 1; f_pid := 0; f_uid := 1; f_pdu := [3%N; 0%N; 0%N; 0%N; 1%N] |} in
  let f2 := {| f_tid := 2; f_pid := 0; f_uid := 9; f_pdu := [99%N] |} in
  let f3 := {| f_tid := 3; f_pid := 0; f_uid := 1; f_pdu := [3%N; 0%N; 0%N; 0%N; 2%N] |} in
  let c := {| c_units := [1]; c_single := None |} in
  let dec := fun p : bytes => match p with [99%N] => DNone | _ => DMsg 3 end in
  let s := spec_adu KTcp f1 ++ spec_adu KTcp f2 ++ spec_adu KTcp f3 in
  Forall (stream_frame KTcp dec c) [f1; f2; f3] /\
  feed (t_recv base tcp dec c) (t_init tcp) [firstn 3 s; []; firstn 22 (skipn 3 s); skipn 25 s]
    = (t_init tcp, [spec_delivery KTcp f1; spec_delivery KTcp f3], true).
Proof.
  split; [|vm_compute; reflexivity].
  repeat constructor; cbn; try lia; try discriminate; reflexivity.
Qed.
