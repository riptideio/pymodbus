(* C16 add-on — the Twisted client protocol keeps the framer INSTANCE the user supplies
   (`self.framer = framer or ModbusSocketFramer(ClientDecoder())`): no framer class defines __bool__
   or __len__, so an instance with an empty buffer is not taken for "no framer". *)
From PM.theories Require Import Base Ladder Frontends CorrFrontends Wiring.
From PM.Generated Require Import GenFrontends GenWiring.
Import ListNotations.
Open Scope string_scope.
Open Scope list_scope.

Theorem C16_cfg_supplied_framer_instance_kept : forall F, In F framer_classes ->
  kind_overrides truth_facts (VInstance F) = false /\
  forall V (user_truth : V -> bool) (x d : V),
    configured_t (WOrDefault "framer" "ModbusSocketFramer(ClientDecoder())")
                 (py_truthy (kind_overrides truth_facts (VInstance F)) user_truth) (Some x) d = x.
Proof.
  intros F HF.
  assert (H : kind_overrides truth_facts (VInstance F) = false).
  { apply negb_true_iff. revert F HF. apply forallb_forall. reflexivity. }
  split; [exact H|]. intros V ut x d. rewrite H. reflexivity.
Qed.
Print Assumptions C16_cfg_supplied_framer_instance_kept.

Example C16_cfg_nonvacuous : In "ModbusSocketFramer" framer_classes /\ length truth_facts = 11%nat.
Proof. split; [left; reflexivity | reflexivity]. Qed.
Print Assumptions C16_cfg_nonvacuous.
