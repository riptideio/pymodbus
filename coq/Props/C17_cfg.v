(* C17 add-on — C17_equiv compares the front-ends under one configuration record; here: that record
   is the same function of the user's arguments for every factory, role by role. *)
From PM.theories Require Import Base Ladder Frontends CorrFrontends Wiring.
From PM.Generated Require Import GenFrontends GenWiring.
From PM.proofs Require Import Wiring_proofs.
Import ListNotations.
Open Scope string_scope.
Open Scope list_scope.

Theorem C17_cfg_same_configuration : forall f1 fe1 f2 fe2 role,
  In f1 factories -> In (fa_target f1, fe1) servers -> In f2 factories -> In (fa_target f2, fe2) servers ->
  In role (required_roles fe1) -> In role (required_roles fe2) ->
  exists s1 p1 s2 p2,
    (exists r1, assoc_s (fa_target f1) server_wiring = Some r1 /\ assoc_s role r1 = Some s1) /\ wparam s1 = Some p1 /\
    (exists r2, assoc_s (fa_target f2) server_wiring = Some r2 /\ assoc_s role r2 = Some s2) /\ wparam s2 = Some p2 /\
    forall V (env : string -> option V) (user_truth : V -> bool) (x d1 d2 : V), env role = Some x ->
      configured_t s1 (py_truthy (role_overrides truth_facts role) user_truth) (ctor_sees f1 env p1) d1 =
      configured_t s2 (py_truthy (role_overrides truth_facts role) user_truth) (ctor_sees f2 env p2) d2.
Proof.
  intros f1 fe1 f2 fe2 role Hf1 Hs1 Hf2 Hs2 Hr1 Hr2.
  destruct (entry_point_serves_user_value f1 fe1 role Hf1 Hs1 Hr1) as (r1 & s1 & p1 & A1 & A2 & A3 & A4).
  destruct (entry_point_serves_user_value f2 fe2 role Hf2 Hs2 Hr2) as (r2 & s2 & p2 & B1 & B2 & B3 & B4).
  exists s1, p1, s2, p2. split; [exists r1; tauto|]. split; [exact A3|]. split; [exists r2; tauto|]. split; [exact B3|].
  intros V env ut x d1 d2 He.
  rewrite (proj1 (A4 V env ut d1) x He), (proj1 (B4 V env ut d2) x He). reflexivity.
Qed.
Print Assumptions C17_cfg_same_configuration.

Example C17_cfg_nonvacuous :
  exists f1 f2, In f1 factories /\ In f2 factories /\ fa_name f1 = "sync.StartTcpServer" /\ fa_name f2 = "async_io.StartTcpServer" /\
    In (fa_target f1, SyncTcp) servers /\ In (fa_target f2, AioTcp) servers /\
    In "ignore_missing_slaves" (required_roles SyncTcp) /\ In "ignore_missing_slaves" (required_roles AioTcp).
Proof.
  exists (factory_at 0), (factory_at 4). split; [apply (nth_error_In factories 0); reflexivity|].
  split; [apply (nth_error_In factories 4); reflexivity|].
  split; [reflexivity|]. split; [reflexivity|].
  split; [apply (nth_error_In servers 1); reflexivity|]. split; [apply (nth_error_In servers 4); reflexivity|].
  split; apply ignore_required.
Qed.
Print Assumptions C17_cfg_nonvacuous.
