(* Props/C08_tcp.v — C08 for the TCP client with the CONCRETE socket-framer model (see Props/C13_tcp.v): no framer
   hypothesis left; the decoder is an oracle [dec] that never raises. *)
From PM.theories Require Import Base Expr Struct FrBaseA FrTcp FrSpecA.
From PM.Generated Require Import GenFramerA GenClient.
From PM.theories Require Import Client CorrClient ClientTcp.
From PM.proofs Require Import FrA_tcp_gate_proofs Client_proofs ClientTcp_proofs.
Open Scope list_scope.
Open Scope Z_scope.

(* a returned reply is the decoding of a PDU that sits, behind an MBAP header with a consistent length field and the
   reply's own transaction/unit ids, inside a byte string [resp] (unconstrained here; in the proof: what this call read) *)
Theorem C08_from_this_call_tcp : forall (dec : bytes -> dres) c st rq sc st' o m,
  s_tx st = [] -> execute code tstate (tcp_framer dec) c st rq sc = (st', o) -> o_res o = RReply m ->
  exists resp d, m = msg_of dec d /\ (wfb resp = true -> tcp_justified resp d).
Proof.
  intros dec c st rq sc st' o m Htx H Hr.
  destruct (execute_reply tstate (tcp_framer dec) c st rq sc st' o m Htx H Hr) as (ms & (resp & fs' & _ & Hp) & Hin).
  exists resp.
  exact (tcp_delivered dec _ resp _ fs' ms None m (tcp_entry_empty dec st) Hp Hin).
Qed.
Print Assumptions C08_from_this_call_tcp.

(* the spec ADU of ANY valid frame for the request's unit (normal reply, or exception reply = 2-byte PDU), served by a
   healthy TCP transport, is returned decoded — whatever transaction id it carries (F-C08-tid-fc-pairing: C08_pairing_refuted).
   The premise on the decoder is not used *)
Theorem C08_conformant_reply_tcp : forall (dec : bytes -> dres), (forall p e, dec p <> DRaise e) ->
  forall c st rq f fcb data rest,
  c_framing c = FTcp -> c_udp c = false -> s_tx st = [] -> c_bcast c && (r_unit rq =? 0) = false ->
  0 <= retries_given c ->
  f_uid f = r_unit rq -> valid_frame KTcp dec (unit_cfg (r_unit rq)) f ->
  f_pdu f = fcb :: data -> (128 <= Z.of_N fcb -> length data = 1%nat) ->
  exists st' o,
    execute code tstate (tcp_framer dec) c st rq
      ((if s_conn st then [] else [Nothing])
         ++ attempt true (tcp_script (full_of tstate c st rq) (spec_adu KTcp f)) ++ rest) = (st', o)
    /\ o_res o = RReply (msg_of dec (spec_delivery KTcp f)) /\ s_tx st' = [] /\ s_tid st' = next_tid code (s_tid st).
Proof. intros dec _. exact (conformant_reply_tcp dec). Qed.
Print Assumptions C08_conformant_reply_tcp.

(* the framer hypotheses of Props/C08.v / C13.v, proved for the socket framer *)
Theorem C08_tcp_framer_hypotheses : forall (dec : bytes -> dres), (forall p e, dec p <> DRaise e) ->
  framer_raises_io tstate (tcp_framer dec) /\ reset_empties tstate (tcp_framer dec) /\
  (forall u f, valid_frame KTcp dec (unit_cfg u) f ->
     conformant_frame tstate (tcp_framer dec) (spec_adu KTcp f) u (msg_of dec (spec_delivery KTcp f))) /\
  (forall fs resp u fs' ms e, t_buf fs = [] -> one_frame resp ->
     f_process (tcp_framer dec) fs resp u = (fs', ms, Some e) -> ms = []).
Proof.
  intros dec Hd. split; [exact (tcp_framer_raises_io dec Hd)|]. split; [exact (tcp_reset_empties dec)|].
  split; [intros u f; exact (tcp_conformant_frame dec u f)|exact (tcp_proc_clean_one_frame dec)].
Qed.
Print Assumptions C08_tcp_framer_hypotheses.

Example C08_tcp_nonvacuous :
  exists st' o,
    execute code tstate (tcp_framer demo_dec) cfg_tcp_demo (Build_cstate 65535 [] (t_init tcp) [] false) rq_rh
      ([Nothing] ++ attempt true (tcp_script false (spec_adu KTcp demo_frame)) ++ []) = (st', o)
    /\ o_res o = RReply (msg_of demo_dec (spec_delivery KTcp demo_frame)) /\ s_tx st' = [] /\ s_tid st' = 0.
Proof. exact tcp_example. Qed.
Print Assumptions C08_tcp_nonvacuous.
