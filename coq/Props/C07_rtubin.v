(* Props/C07_rtubin.v — C07, RTU / binary half: corrupted frames are never delivered.  The gates
   of the two framers, and the detection power of CRC-16/Modbus itself (linearity, syndrome,
   odd weight, two bits, bursts), which the gates rest on. *)
From PM.theories Require Import Base Expr Struct FrBCode Crc FrBCommon FrRtu FrBin FrSpecB.
From PM.Generated Require Import GenFramerB.
From PM.proofs Require Import Crc_proofs Crc_detect_proofs FrB_rtu_proofs FrB_bin_proofs.
Open Scope list_scope.
Open Scope N_scope.

(* utilities.checkCRC, the check of both framers, compares with the spec checksum *)
Theorem C07_check_is_bitwise_crc : forall bs k, wfb bs = true ->
  py_check_crc bs k = Ok (Z.of_N (swap16 (crc16_bitwise bs)) =? k)%Z.
Proof. exact py_check_crc_spec. Qed.
Print Assumptions C07_check_is_bitwise_crc.

(* RTU gate, for the whole drain loop of a processIncomingPacket call from any receiver state:
   whatever reaches the callback is a span of the buffered bytes that the reference receiver
   accepts; an intact frame in front never opens the gate for a corrupted one behind it *)
Theorem C07_gate_rtu : forall cfg st chunk st' ds x,
  known_rules (cf_rules cfg) -> wfb (r_buf st ++ chunk) = true ->
  rtu_recv cfg st chunk = (st', ds, x) ->
  forall pdu uid, In (pdu, uid) ds ->
    exists u pre rest, r_buf st ++ chunk = pre ++ spec_adu_rtu u pdu ++ rest /\ uid = Z.of_N u /\
                       crc_ok (spec_adu_rtu u pdu) = true /\ spec_rx_rtu (spec_adu_rtu u pdu) = Some (pdu, u).
Proof. exact rtu_gate. Qed.
Print Assumptions C07_gate_rtu.

Example C07_nonvacuous :
  let cfg := {| cf_dec := fun _ => DMsg; cf_rules := server_decoder; cf_units := [1%Z]; cf_single := false |} in
  snd (fst (rtu_recv cfg rtu_init (spec_adu_rtu 1 [3; 0; 1; 0; 2]))) = [([3; 0; 1; 0; 2], 1%Z)] /\ known_rules (cf_rules cfg).
Proof. split; [vm_compute; reflexivity | exact known_server]. Qed.

(* Detection power of CRC-16/Modbus itself, independent of the framers: [xor_bytes frame e] is
   the frame with error pattern e, [weight e] the number of flipped bits. *)
Theorem C07_crc_linear : forall a e s, length e = length a ->
  crc_reg s (xor_bytes a e) = N.lxor (crc_reg s a) (crc_reg 0 e).
Proof. exact crc_linear. Qed.
Print Assumptions C07_crc_linear.

Theorem C07_crc_syndrome : forall frame e, wfb frame = true -> wfb e = true ->
  length e = length frame -> crc_ok frame = true ->
  (crc_ok (xor_bytes frame e) = true <-> crc_reg 0 e = 0).
Proof. exact crc_detect_iff. Qed.
Print Assumptions C07_crc_syndrome.

Theorem C07_crc_single : forall frame e, wfb frame = true -> wfb e = true ->
  length e = length frame -> crc_ok frame = true -> weight e = 1%nat ->
  crc_ok (xor_bytes frame e) = false.
Proof.
  intros frame e Wf We L OK H. apply crc_detected; auto. apply crc_reg0_odd. now rewrite H.
Qed.
Print Assumptions C07_crc_single.

Theorem C07_crc_odd : forall frame e, wfb frame = true -> wfb e = true ->
  length e = length frame -> crc_ok frame = true -> Nat.odd (weight e) = true ->
  crc_ok (xor_bytes frame e) = false.
Proof. intros. apply crc_detected; auto using crc_reg0_odd. Qed.
Print Assumptions C07_crc_odd.

(* an RTU frame has at most 2048 bits *)
Theorem C07_crc_double : forall frame e, wfb frame = true -> wfb e = true ->
  length e = length frame -> crc_ok frame = true -> weight e = 2%nat ->
  (8 * N.of_nat (length frame) < 32767) -> crc_ok (xor_bytes frame e) = false.
Proof.
  intros frame e Wf We L OK H2 HL. apply crc_detected; auto.
  apply crc_reg0_double; auto. now rewrite L.
Qed.
Print Assumptions C07_crc_double.

(* consecutive in transmission order *)
Theorem C07_crc_burst16 : forall frame e, wfb frame = true -> wfb e = true ->
  length e = length frame -> crc_ok frame = true -> (0 < burst_len e <= 16)%nat ->
  crc_ok (xor_bytes frame e) = false.
Proof. intros. apply crc_detected; auto using crc_reg0_burst16. Qed.
Print Assumptions C07_crc_burst16.

(* Detection composed with the receiver, as far as it goes: bytes failing the check as a whole
   yield no delivery of that same extent.  The RTU extent is computed from the (possibly
   corrupted) function code and byte count; when a flip changes it only C07_gate_rtu applies. *)
Theorem C07_no_delivery_rtu_partial : forall cfg st frame' st' ds x,
  known_rules (cf_rules cfg) -> r_buf st = [] -> wfb frame' = true -> crc_ok frame' = false ->
  rtu_recv cfg st frame' = (st', ds, x) ->
  forall pdu uid, In (pdu, uid) ds -> forall u, uid = Z.of_N u -> length (spec_adu_rtu u pdu) <> length frame'.
Proof. exact rtu_no_delivery_same_extent. Qed.
Print Assumptions C07_no_delivery_rtu_partial.

Example C07_detection_nonvacuous :
  let frame := with_crc [1; 3; 0; 1; 0; 2] in
  crc_ok frame = true /\ weight [0; 0; 4; 0; 0; 0; 0; 0] = 1%nat /\
  weight [0; 0; 4; 0; 0; 128; 0; 0] = 2%nat /\ burst_len [0; 0; 128; 255; 1; 0; 0; 0] = 10%nat /\
  crc_ok (xor_bytes frame [0; 0; 4; 0; 0; 128; 0; 0]) = false.
Proof. cbv zeta. repeat split; vm_compute; reflexivity. Qed.

(* Binary gate, for every delivery of a call (first or later of the same read, with or without
   junk in front of its '{'); both real decoders reject the empty PDU. *)
Theorem C07_gate_binary : forall cfg st chunk st' ds x,
  wfb (b_buf st ++ chunk) = true -> cf_dec cfg [] <> DMsg ->
  bin_recv cfg st chunk = (st', ds, x) ->
  forall d, In d ds -> bin_justified (b_buf st ++ chunk) d.
Proof.
  intros cfg st chunk st' ds x Hw Hd0 R.
  destruct (bin_loop_gate cfg Hd0 (S (length (b_buf st ++ chunk))) {| b_buf := b_buf st ++ chunk; b_hdr := b_hdr st |} [] Hw)
    as (new & E & Hj).
  change (bin_loop _ _ _ _) with (bin_recv cfg st chunk) in E. rewrite R in E. cbn [fst snd app] in E. now subst ds.
Qed.
Print Assumptions C07_gate_binary.

Theorem C07_gate_binary_span_is_spec : forall u pdu c0 c1, c0 < 256 -> c1 < 256 ->
  crc16_bitwise (u :: pdu) = c0 + 256 * c1 -> no_delim ((u :: pdu) ++ [c0; c1]) = true ->
  [123] ++ (u :: pdu) ++ [c0; c1] ++ [125] = spec_adu_binary u pdu.
Proof. exact bin_gate_span_spec. Qed.
Print Assumptions C07_gate_binary_span_is_spec.

Theorem C07_binary_junk_prefix : forall cfg st chunk j u pdu, valid_bframe cfg u pdu -> ~ In 123 j ->
  b_buf st ++ chunk = j ++ spec_adu_binary u pdu ->
  bin_recv cfg st chunk = (bin_init, [(pdu, Z.of_N u)], FOk).
Proof. exact bin_recv_whole. Qed.
Print Assumptions C07_binary_junk_prefix.

(* the inputs of finding F-C07-binary-stale-start: a frame with a byte inserted after '{', and an
   intact frame, each behind noise *)
Theorem C07_binary_stale_start_fixed :
  let cfg := {| cf_dec := fun _ => DMsg; cf_rules := server_decoder; cf_units := [17%Z; 3%Z]; cf_single := false |} in
  snd (fst (bin_recv cfg bin_init [0; 123; 17; 3; 43; 14; 1; 0; 9; 183; 125])) = [] /\
  snd (fst (bin_recv cfg bin_init [0; 255; 123; 3; 43; 14; 1; 0; 9; 183; 125])) = [([43; 14; 1; 0], 3%Z)].
Proof. cbv zeta. split; vm_compute; reflexivity. Qed.
Print Assumptions C07_binary_stale_start_fixed.
