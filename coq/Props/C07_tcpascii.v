(* Props/C07_tcpascii.v — C07 (corrupted frames are never delivered), half for the socket and
   ASCII framers and the LRC.  Gate theorems hold from ANY receiver state (arbitrary buffer and
   header), hence for every corruption, truncation, extension and surrounding traffic. *)
From PM.theories Require Import Base Expr Struct FrBaseA Lrc FrTcp FrAscii FrSpecA.
From PM.Generated Require Import GenFramerA.
From PM.proofs Require Import FrA_lrc_proofs FrA_tcp_proofs FrA_ascii_proofs FrA_ascii_gate_proofs FrA_tcp_gate_proofs.
Open Scope list_scope.
Open Scope Z_scope.

(* ASCII: whenever checkFrame accepts, the trimmed buffer is a span ':' D c1 c2 CR LF whose LRC
   characters c1 c2 match the bytes D encodes, and the header holds what was parsed from that span *)
Theorem C07_gate_ascii : forall st st1 : astate,
  a_check lrc ascii st = (st1, true) ->
  exists pre D c1 c2 rest data,
    a_buf st = pre ++ a_buf st1 /\
    ascii_span (a_buf st1) (a_uid (a_hdr st1)) (match a_lrc (a_hdr st1) with Some v => v | None => -1 end)
               data D c1 c2 rest /\
    a_len (a_hdr st1) = Z.of_nat (S (length D + 2)).
Proof. intros st st1 H. rewrite a_check_eq in H. exact (ascii_check_gate st st1 H). Qed.
Print Assumptions C07_gate_ascii.

(* TCP: whenever checkFrame accepts, the PDU given to the decoder is the len-1 bytes behind the header, all present *)
Theorem C07_gate_tcp : forall st st1 : tstate,
  t_check tcp st = Ok (st1, true) ->
  t_buf st1 = t_buf st /\ t_hdr st1 = hdr_of (firstn 7 (t_buf st)) /\ 2 <= h_len (t_hdr st1) /\
  t_getframe tcp st1 = firstn (Z.to_nat (h_len (t_hdr st1) - 1)) (skipn 7 (t_buf st)) /\
  Z.of_nat (length (t_getframe tcp st1)) = h_len (t_hdr st1) - 1 /\
  t_buf st = firstn 7 (t_buf st) ++ t_getframe tcp st1 ++ t_buf (t_advance tcp st1).
Proof. exact tcp_check_gate. Qed.
Print Assumptions C07_gate_tcp.

(* loop level: every element of the delivery list of a receive call comes from such a span of the input *)
Theorem C07_deliveries_ascii : forall (dec : bytes -> dres) (c : cfg) (st : astate) (chunk : bytes) st' ds o,
  a_recv base lrc ascii dec c st chunk = (st', ds, o) ->
  Forall (ascii_justified (a_buf st ++ chunk)) ds.
Proof. intros dec c st chunk st' ds o. apply ascii_loop_gate. Qed.
Print Assumptions C07_deliveries_ascii.

(* TCP: every delivery is a complete spec MBAP ADU (length field = |PDU| + 1 >= 2) lying in
   buffer ++ chunk; processIncomingPacket never calls _process with error=True *)
Theorem C07_deliveries_tcp : forall (dec : bytes -> dres) (c : cfg) (st : tstate) (chunk : bytes) st' ds o,
  wfb (t_buf st) = true -> wfb chunk = true ->
  t_recv base tcp dec c st chunk = (st', ds, o) ->
  Forall (tcp_justified (t_buf st ++ chunk)) ds.
Proof. exact tcp_recv_gate. Qed.
Print Assumptions C07_deliveries_tcp.

(* with the PDU-length rule of the protocol ([spec_pdu_len]): PARTIAL — the hypothesis that the decoder
   rejects PDUs of the wrong length is forced: the real decoders tolerate trailing / missing bytes
   (open finding F-C07-tcp-wrong-length-pdu-accepted) and the framer checks no PDU length *)
Definition C07_deliveries_tcp_pdu_len_full_statement : Prop :=
  forall (dec : bytes -> dres) (server : bool) (c : cfg) (st : tstate) (chunk : bytes) st' ds o,
  wfb (t_buf st) = true -> wfb chunk = true -> t_recv base tcp dec c st chunk = (st', ds, o) ->
  Forall (fun d => pdu_len_ok server (d_pdu d) = true) ds.
Theorem C07_deliveries_tcp_pdu_len_partial :
  forall (dec : bytes -> dres) (server : bool) (c : cfg) (st : tstate) (chunk : bytes) st' ds o,
  (forall pdu, is_msg (dec pdu) = true -> pdu_len_ok server pdu = true) ->
  wfb (t_buf st) = true -> wfb chunk = true ->
  t_recv base tcp dec c st chunk = (st', ds, o) ->
  Forall (fun d => tcp_justified (t_buf st ++ chunk) d /\ pdu_len_ok server (d_pdu d) = true) ds.
Proof.
  intros dec server c st chunk st' ds o Hdec H1 H2 H.
  eapply Forall_impl; [|exact (tcp_recv_gate_msgs _ _ _ _ _ _ _ H1 H2 H)]. intros d [Hd Hm]. auto.
Qed.
Print Assumptions C07_deliveries_tcp_pdu_len_partial.

(* ... and refuted without it: a ReadExceptionStatus request (1-byte PDU) with length field 6 *)
Theorem C07_tcp_pdu_len_refuted : exists dec c chunk st' d,
  t_recv base tcp dec c (t_init tcp) chunk = (st', [d], Done) /\ pdu_len_ok true (d_pdu d) = false.
Proof.
  exists (fun _ => DMsg 7), {| c_units := [1]; c_single := Some false |},
         [0; 1; 0; 0; 0; 6; 1; 7; 0; 2; 0; 0; 0; 6; 1; 3]%N.
  eexists. eexists. vm_compute. split; reflexivity.
Qed.
Print Assumptions C07_tcp_pdu_len_refuted.

(* 7 bytes whose first byte is >= 0x80 (no complete frame) are only buffered: nothing is delivered *)
Theorem C07_tcp_fixed_witness :
  t_recv base tcp (fun _ => DMsg 128) {| c_units := [1]; c_single := Some false |} (t_init tcp)
         [128%N; 1%N; 0%N; 0%N; 0%N; 6%N; 1%N]
  = ({| t_buf := [128%N; 1%N; 0%N; 0%N; 0%N; 6%N; 1%N]; t_hdr := hdr0 |}, [], Done).
Proof. vm_compute. reflexivity. Qed.
Print Assumptions C07_tcp_fixed_witness.

(* detection power of the LRC: changing any single byte of unit+PDU+LRC breaks the check equation.
   (lia decides the mod 256 goals here and below through the zify_post_hook that FrA_lrc_proofs sets.) *)
Theorem C07_lrc_single_char : forall (pre post : bytes) (x x' : N),
  (x < 256)%N -> (x' < 256)%N -> x <> x' ->
  lrc_ok (pre ++ x :: post) -> ~ lrc_ok (pre ++ x' :: post).
Proof.
  intros pre post x x'. unfold lrc_ok. rewrite !bsum_app. change (bsum (?y :: post)) with (Z.of_N y + bsum post). lia.
Qed.
Print Assumptions C07_lrc_single_char.

Theorem C07_lrc_ok_iff : forall (body : bytes) (ck : N), (ck < 256)%N ->
  (lrc_ok (body ++ [ck]) <-> Z.of_N ck = spec_lrc body).
Proof. intros body ck. unfold lrc_ok, spec_lrc. rewrite bsum_app. cbn [bsum fold_right]. lia. Qed.
Print Assumptions C07_lrc_ok_iff.

Example C07_nonvacuous :
  snd (a_check lrc ascii {| a_buf := [120; 58; 48; 49; 48; 51; 70; 67; 13; 10; 7]%N; a_hdr := a_hdr_init ascii |}) = true
  /\ lrc_ok [1; 3; 252]%N.
Proof. split; vm_compute; reflexivity. Qed.
