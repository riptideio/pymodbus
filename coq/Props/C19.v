(* Props/C19.v — Payload builder and decoder agree for every byte and word order.
   All theorems are about [GenPayload.code], the record the translator regenerates from
   pymodbus/payload.py and constants.py on every run; [C19_code_is_layout] is the tie, and rewriting
   with it is how a lemma of proofs/Payload_proofs.v stated about [spec_code] is applied (the
   definitions the statements name beside the model's are in that file too).  Value sequences have
   any length; integers range over their whole type; floats are IEEE bit patterns (every pattern of
   the width; Python float <-> bits is outside the model). *)
From PM.theories Require Import Base Struct Payload.
From PM.Generated Require Import GenPayload.
From PM.proofs Require Import Payload_proofs.
Open Scope list_scope.
Open Scope Z_scope.

(* what the translator read from the source = the layout the method names promise *)
Theorem C19_code_is_layout : code = spec_code.
Proof. exact code_is_spec. Qed.
Print Assumptions C19_code_is_layout.

(* raw transport: the builder does not raise, and a fresh decoder with the same orders
   returns exactly the values, in order, and stops at the end of the payload *)
Theorem C19_roundtrip : forall bo wo vs,
  wf_values vs = true ->
  exists s, to_string code bo wo vs = Ok s /\
            decode_seq code bo wo (types vs) s = Ok (vs, length s).
Proof. rewrite C19_code_is_layout. exact roundtrip_spec. Qed.
Print Assumptions C19_roundtrip.

(* the same through to_registers() -> fromRegisters(): the payload comes back with one
   zero byte appended iff its length is odd, and the decoder still returns the values *)
Theorem C19_via_registers : forall bo wo vs,
  wf_values vs = true ->
  exists s regs p, to_string code bo wo vs = Ok s /\
    to_registers code bo false s = Ok regs /\
    from_registers code regs = Ok p /\
    p = s ++ (if Nat.odd (length s) then [0%N] else []) /\
    decode_seq code bo wo (types vs) p = Ok (vs, length s).
Proof. rewrite C19_code_is_layout. exact via_registers_spec. Qed.
Print Assumptions C19_via_registers.

(* the pad byte (any trailing bytes at all) is irrelevant; bit groups of any length come
   back zero padded to whole bytes ([decoded]), everything else exactly *)
Theorem C19_trailing_bytes_irrelevant : forall bo wo vs post,
  forallb in_domain vs = true ->
  exists s, to_string code bo wo vs = Ok s /\
            decode_seq code bo wo (types vs) (s ++ post) = Ok (map decoded vs, length s).
Proof. rewrite C19_code_is_layout. exact roundtrip_general. Qed.
Print Assumptions C19_trailing_bytes_irrelevant.

(* registers are the big-endian 16-bit words of the (padded) payload, whatever the orders *)
Theorem C19_registers_carry_payload : forall bo s,
  wfb s = true ->
  exists regs, to_registers code bo false s = Ok regs /\
               regs = regs_of (s ++ (if Nat.odd (length s) then [0%N] else [])) /\
               from_registers code regs = Ok (s ++ (if Nat.odd (length s) then [0%N] else [])).
Proof. rewrite C19_code_is_layout. exact registers_roundtrip. Qed.
Print Assumptions C19_registers_carry_payload.

(* the image of every numeric value of 2k bytes is the conventional one … *)
Theorem C19_image : forall bo wo k x,
  (2 <= kind_width k)%nat -> in_kind_range k x = true ->
  add_value code bo wo (VNum k x) = Ok (image bo wo (net_bytes k x)).
Proof. rewrite C19_code_is_layout. exact image_spec. Qed.
Print Assumptions C19_image.

(* … where, for network-order bytes B of even length: big/big is B itself, little word
   order reverses the 16-bit words, little byte order swaps the bytes inside each word *)
Theorem C19_image_convention : forall n B,
  length B = (2 * n)%nat ->
  image Big Big B = B /\
  image Big Little B = concat (rev (words16 B)) /\
  (forall wo, image Little wo B = concat (map (@rev N) (words16 (image Big wo B)))).
Proof.
  intros n B H. split; [|split].
  - cbn [image]. apply (concat_words16 n), H.
  - reflexivity.
  - intros wo. rewrite (image_img_words Big wo B), words16_concat by apply img_words_len2, words16_len2.
    destruct wo; reflexivity.
Qed.
Print Assumptions C19_image_convention.

(* … and the registers a single value occupies are the big-endian words of that image *)
Theorem C19_register_image : forall bo wo k x,
  (2 <= kind_width k)%nat -> in_kind_range k x = true ->
  exists s, to_string code bo wo [VNum k x] = Ok s /\
            s = image bo wo (net_bytes k x) /\
            to_registers code bo false s = Ok (regs_of s).
Proof.
  rewrite C19_code_is_layout. intros bo wo k x Hw Hr. exists (image bo wo (net_bytes k x)).
  split; [|split; [reflexivity|]].
  - cbn [to_string]. rewrite (image_spec bo wo k x Hw Hr). cbn [bind]. now rewrite app_nil_r.
  - pose proof (net_bytes_even k x Hw) as He. rewrite <- (image_length (bo := bo) (wo := wo) He) in He.
    now rewrite to_registers_spec, (reg_pad_even _ _ He), app_nil_r.
Qed.
Print Assumptions C19_register_image.

(* two's complement: a signed value is written exactly as the unsigned value congruent
   to it modulo 2^bits … *)
Theorem C19_signed : forall bo wo k x,
  in_kind_range k x = true ->
  add_value code bo wo (VNum k x) =
  add_value code bo wo (VNum (unsigned_of k) (x mod 2 ^ (8 * Z.of_nat (kind_width k)))).
Proof.
  rewrite C19_code_is_layout. intros bo wo k x H. rewrite !add_num_spec, H, in_kind_range_unsigned_mod. unfold enc_bytes.
  now rewrite <- signed_bytes, unsigned_of_words.
Qed.
Print Assumptions C19_signed.

(* … which for a negative number is 2^bits + x, the patterns with the top bit set *)
Theorem C19_signed_pattern : forall k x,
  kind_signed k = true -> in_kind_range k x = true ->
  let m := 2 ^ (8 * Z.of_nat (kind_width k)) in
  x mod m = (if x <? 0 then x + m else x) /\ (x < 0 <-> m / 2 <= x mod m).
Proof.
  intros k x Hs Hr. cbv zeta. rewrite <- (to_unsigned_mod k x Hr). unfold to_unsigned. rewrite pow256_kind.
  unfold in_kind_range in Hr. rewrite Hs in Hr. set (m := 2 ^ (8 * Z.of_nat (kind_width k))) in *.
  split; [reflexivity|]. destruct (x <? 0) eqn:E; lia.
Qed.
Print Assumptions C19_signed_pattern.

(* decoder side: reading the same bytes with the signed decoder instead of the unsigned one
   of the same width subtracts 2^bits exactly when the top bit is set *)
Theorem C19_signed_decode : forall bo wo k payload ptr u p,
  kind_signed k = true ->
  decode1 code bo wo (TNum (unsigned_of k)) payload ptr = Ok (VNum (unsigned_of k) u, p) ->
  let m := 2 ^ (8 * Z.of_nat (kind_width k)) in
  decode1 code bo wo (TNum k) payload ptr = Ok (VNum k (if m / 2 <=? u then u - m else u), p).
Proof.
  rewrite C19_code_is_layout. intros bo wo k payload ptr u p Hs H m.
  rewrite (decode1_of_unsigned _ _ _ _ _ _ _ H). unfold of_unsigned.
  now rewrite kind_fmt_signed, Hs, pow256_kind.
Qed.
Print Assumptions C19_signed_decode.

(* numbers outside their type make the builder raise; nothing wraps silently *)
Theorem C19_out_of_range_raises : forall bo wo k x,
  in_kind_range k x = false -> add_value code bo wo (VNum k x) = Raise StructError.
Proof. rewrite C19_code_is_layout. intros bo wo k x H. now rewrite add_num_spec, H. Qed.
Print Assumptions C19_out_of_range_raises.

(* builder option repack=True (non-default; outside the four order pairs the property
   quantifies over).  Full statement: the register round trip for either value of the flag. *)
Definition C19_full_statement_repack : Prop :=
  forall repack bo wo vs, wf_values vs = true -> via_registers_statement repack bo wo vs.

(* refuted: repack=True with byte order Little reads registers little-endian while
   fromRegisters writes them big-endian; U16 0x1234 comes back as 0x3412 *)
Theorem C19_repack_refuted :
  exists bo wo vs, wf_values vs = true /\ ~ via_registers_statement true bo wo vs.
Proof.
  exists Little, Big, [U16 0x1234]. split; [reflexivity|].
  intros (s & regs & p & Hs & Hr & Hf & Hd).
  vm_compute in Hs. injection Hs as <-. vm_compute in Hr. injection Hr as <-.
  vm_compute in Hf. injection Hf as <-. vm_compute in Hd. discriminate Hd.
Qed.
Print Assumptions C19_repack_refuted.

(* the strongest true statement: everything except (repack=True and byte order Little) *)
Theorem C19_repack_partial : forall repack bo wo vs,
  (repack = true -> bo = Big) -> wf_values vs = true -> via_registers_statement repack bo wo vs.
Proof.
  intros repack bo wo vs Hb H. unfold via_registers_statement. rewrite C19_code_is_layout.
  destruct (via_registers_spec bo wo vs H) as (s & regs & p & Hs & Hr & Hf & _ & Hd).
  exists s, regs, p. repeat split; try assumption.
  destruct repack; [|exact Hr]. rewrite (Hb eq_refl) in *.
  (* under byte order Big, repack=True reads the registers with ">" "H", which struct takes as the
     "!" "H" of the default: the two calls are convertible *)
  change (to_registers spec_code Big true s) with (to_registers spec_code Big false s). exact Hr.
Qed.
Print Assumptions C19_repack_partial.

(* coil transport (to_coils -> fromCoils), adjacent to the property: fromCoils drops its
   wordorder argument, so under word order Little multi-register values come back with
   their words swapped (witness: byte order Big, word order Little) *)
Theorem C19_coils_refuted :
  exists bo wo vs, wf_values vs = true /\ via_coils bo wo vs = Ok ([U32 0x33441122], 4%nat) /\ vs = [U32 0x11223344].
Proof. exists Big, Little, [U32 0x11223344]. vm_compute. repeat split. Qed.
Print Assumptions C19_coils_refuted.

(* with word order Big (the one the decoder silently gets) the coil transport is faithful,
   for every byte order *)
Theorem C19_coils_partial : forall bo vs,
  wf_values vs = true ->
  exists s, to_string code bo Big vs = Ok s /\ via_coils bo Big vs = Ok (vs, length s).
Proof. exact via_coils_partial. Qed.
Print Assumptions C19_coils_partial.

(* non-vacuity: concrete values under all four orders, an odd-length sequence through
   registers, and a well-formed sequence of every type that satisfies the hypotheses *)
Example C19_nonvacuous :
  to_string code Big Big [U32 0x11223344] = Ok (map Z.to_N [0x11; 0x22; 0x33; 0x44]) /\
  to_string code Big Little [U32 0x11223344] = Ok (map Z.to_N [0x33; 0x44; 0x11; 0x22]) /\
  to_string code Little Big [U32 0x11223344] = Ok (map Z.to_N [0x22; 0x11; 0x44; 0x33]) /\
  to_string code Little Little [U32 0x11223344] = Ok (map Z.to_N [0x44; 0x33; 0x22; 0x11]) /\
  (do s <- to_string code Little Little [I16 (-2); U8 7]; to_registers code Little false s) = Ok [0xFEFF; 0x0700] /\
  let vs := [U8 255; U16 0x1234; U32 0x11223344; U64 0x1122334455667788; I8 (-128); I16 (-2); I32 (-3);
             I64 (-0x8000000000000000); F16 0x7C00; F32 0x00000001; F64 0xFFF0000000000000;
             Bits [true; false; true; true; false; false; false; true]; Str (map Z.to_N [0x61; 0x62; 0xFF])] in
  wf_values vs = true /\
  (do s <- to_string code Little Little vs; decode_seq code Little Little (types vs) s) = Ok (vs, 48%nat).
Proof. vm_compute. repeat split. Qed.
Print Assumptions C19_nonvacuous.
