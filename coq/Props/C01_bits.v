(* C01 add-on — the bit packing of utilities.py over its GENERATED constants.
   C01_bitpack / C01_bitunpack are about the literal model of Pdu.v (tied by correspondence); here
   the two loops are matched statement by statement by gen/gen_bits.py and their constants
   (128, 8, 1, 8, 7 / 8 bits, mask 1, == 1, shift 1) regenerated on every run; the interpreter of
   that generated code is proved equal to the specification's LSB-first packing with zero padding. *)
From PM.theories Require Import Base Bits PduSpec Pdu.
From PM.Generated Require Import GenBits.
From PM.proofs Require Import Pdu_bits_proofs Bits_proofs.
Open Scope N_scope.

Theorem C01_bits_code_is_spec : GenBits.code = spec_bits_code.
Proof. exact bits_code_is_spec. Qed.
Print Assumptions C01_bits_code_is_spec.

Theorem C01_bitpack_generated : forall bits, pack_g GenBits.code bits = spec_pack_bits bits.
Proof. intros bits. rewrite bits_code_is_spec, pack_g_literal. apply py_pack_spec. Qed.
Print Assumptions C01_bitpack_generated.

Theorem C01_bitunpack_generated : forall bs, unpack_g GenBits.code bs = spec_unpack_bits bs.
Proof. intros bs. rewrite bits_code_is_spec, unpack_g_literal. apply py_unpack_spec. Qed.
Print Assumptions C01_bitunpack_generated.

Theorem C01_bits_generated_is_literal_model :
  (forall bits, pack_g GenBits.code bits = py_pack_bitstring bits) /\
  (forall s, unpack_g GenBits.code s = py_unpack_bitstring s).
Proof. rewrite bits_code_is_spec. split; [exact pack_g_literal | exact unpack_g_literal]. Qed.
Print Assumptions C01_bits_generated_is_literal_model.

Example C01_bits_nonvacuous :
  pack_g GenBits.code [true; false; true; true; false; false; false; false; true] = [13; 1] /\
  unpack_g GenBits.code [13] = [true; false; true; true; false; false; false; false].
Proof. split; vm_compute; reflexivity. Qed.
Print Assumptions C01_bits_nonvacuous.
