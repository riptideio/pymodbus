(* Props/C08_rtu.v — C08 for the serial RTU client with the CONCRETE RTU framer model (see Props/C13_rtu.v). *)
From PM.theories Require Import Base Expr Struct FrBCode Crc FrBCommon FrRtu FrSpecB.
From PM.Generated Require Import GenFramerB GenClient.
From PM.proofs Require Import FrB_rtu_proofs FrB_rtu_client_proofs.
From PM.theories Require Import Client CorrClient.
From PM.proofs Require Import Client_proofs ClientRtu_proofs.
Open Scope list_scope.
Open Scope Z_scope.

(* a returned reply is the decoding of a PDU that sits — its unit id in front, a matching CRC-16 behind — inside a byte
   string [resp] (unconstrained here; in the proof: what this call read); its unit id is the one on the wire *)
Theorem C08_from_this_call_rtu : forall (dec : bytes -> FrBCommon.dres)
  (dec_total : forall pdu, dec pdu = FrBCommon.DMsg \/ dec pdu = FrBCommon.DNone) c st rq sc st' o m,
  s_tx st = [] -> execute code rok (rtu_framer dec dec_total) c st rq sc = (st', o) -> o_res o = RReply m ->
  exists resp pdu uid, m = rmsg_of (pdu, uid) /\
    (wfb resp = true ->
     exists u pre rest, resp = pre ++ spec_adu_rtu u pdu ++ rest /\ uid = Z.of_N u /\ crc_ok (spec_adu_rtu u pdu) = true).
Proof. exact from_this_call_rtu. Qed.
Print Assumptions C08_from_this_call_rtu.

(* the spec ADU (unit, PDU, CRC-16) of any frame valid for the request's unit (size rule right for it, decoder accepts it),
   served by a healthy serial transport, is returned decoded; [fits] is what C14 provides for the request *)
Theorem C08_conformant_reply_rtu : forall (dec : bytes -> FrBCommon.dres)
  (dec_total : forall pdu, dec pdu = FrBCommon.DMsg \/ dec pdu = FrBCommon.DNone) c st rq (u fcb : N) data rest,
  c_framing c = FRtu -> c_udp c = false -> s_tx st = [] -> c_bcast c && (r_unit rq =? 0) = false ->
  0 <= retries_given c ->
  Z.of_N u = r_unit rq -> valid_frame (ucfg dec (r_unit rq)) true u (fcb :: data) ->
  fits (exp_of c rq) (spec_adu_rtu u (fcb :: data)) ->
  (128 <= Z.of_N fcb -> length data = 1%nat) ->
  exists st' o,
    execute code rok (rtu_framer dec dec_total) c st rq
      ((if s_conn st then [] else [Nothing])
         ++ attempt true (rtu_script (full_of rok c st rq) (spec_adu_rtu u (fcb :: data))) ++ rest) = (st', o)
    /\ o_res o = RReply (rmsg_of (fcb :: data, r_unit rq)) /\ s_tx st' = [] /\ s_tid st' = next_tid code (s_tid st).
Proof. intros dec Hd c st rq u fcb data rest Hfr _. exact (conformant_reply_rtu dec Hd c st rq u fcb data rest Hfr). Qed.
Print Assumptions C08_conformant_reply_rtu.

(* the framer hypotheses of Props/C08.v / C13.v, proved for the RTU framer *)
Theorem C08_rtu_framer_hypotheses : forall (dec : bytes -> FrBCommon.dres)
  (dec_total : forall pdu, dec pdu = FrBCommon.DMsg \/ dec pdu = FrBCommon.DNone),
  framer_raises_io rok (rtu_framer dec dec_total) /\ reset_empties rok (rtu_framer dec dec_total) /\
  (forall (u : N) pdu, valid_frame (ucfg dec (Z.of_N u)) true u pdu ->
     conformant_frame rok (rtu_framer dec dec_total) (spec_adu_rtu u pdu) (Z.of_N u) (rmsg_of (pdu, Z.of_N u))) /\
  (forall fs resp u fs' ms e, f_nonempty (rtu_framer dec dec_total) fs = false -> ~ two_frames resp ->
     f_process (rtu_framer dec dec_total) fs resp u = (fs', ms, Some e) -> ms = []).
Proof.
  intros dec Hd. split; [exact (rtu_framer_raises_io dec Hd)|]. split; [exact (rtu_reset_empties dec Hd)|].
  split; [exact (rtu_conformant_frame dec Hd)|exact (rtu_proc_clean_read dec Hd)].
Qed.
Print Assumptions C08_rtu_framer_hypotheses.
