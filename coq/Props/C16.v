(* Props/C16.v — Asynchronous (Twisted) client matches pipelined replies by transaction id.
   Everything below is about [GenAsync.code], the record the translator regenerates from
   twisted/__init__.py, transaction.py and constants.py on every run: the theorems over all
   histories come from the invariants of proofs/Async_proofs.v (generic in the code record), the
   witnesses from running the model.
   A history is ANY list of Execute / ExecuteE / ExecuteC / Segment (reply frames) / Lost / Made /
   Close / Skip n; ExecuteE / ExecuteC are requests whose errback / callback calls protocol.execute again
   (re-entrant user code); deferreds are named by the allocation index of their transaction id.
   [plain ops] = no ExecuteE / ExecuteC in the history. *)
From PM.theories Require Import Base AsyncClient.
From PM.Generated Require Import GenAsync.
From PM.proofs Require Import Async_proofs AsyncGen_proofs.
From Coq Require Import Permutation.
Open Scope list_scope.
Open Scope N_scope.

(* the regenerated record has the increment, mask, guards, loops and exception classes the
   theorems rely on (mask 0xff, a dropped errback loop, a missing guard ... break this) *)
Theorem C16_generated_good : good_code code.
Proof. exact gen_good. Qed.
Print Assumptions C16_generated_good.

(* every deferred ever returned is, at every point of every history, in exactly one of:
   displaced from the table, pending, fired — and there exactly once (both variants) *)
Theorem C16_partition : forall v ops,
  let σ := arun code v ops (init_state code) in
  Permutation (a_lost σ ++ pending_dids σ ++ fired_dids σ) (issued σ) /\ NoDup (issued σ).
Proof. exact (partition_all_histories code gen_good). Qed.
Print Assumptions C16_partition.

Theorem C16_once : forall v ops, NoDup (fired_dids (arun code v ops (init_state code))).
Proof. exact (once_all_histories code gen_good). Qed.
Print Assumptions C16_once.

(* once the table is empty (e.g. right after connectionLost, or after the last reply) and no slot
   was ever overwritten, every deferred handed out has fired exactly once *)
Theorem C16_exactly_once : forall v ops,
  let σ := arun code v ops (init_state code) in
  a_pending σ = [] -> a_lost σ = [] -> Permutation (fired_dids σ) (issued σ) /\ NoDup (fired_dids σ).
Proof.
  intros v ops σ Hp Hl. destruct (partition_all_histories code gen_good v ops) as [Hperm Hn]. fold σ in Hperm.
  unfold pending_dids in Hperm. rewrite Hp, Hl in Hperm. split; [exact Hperm|apply (once_all_histories code gen_good)].
Qed.
Print Assumptions C16_exactly_once.

(* window hypothesis (fewer than 65536 tids handed out since every registered request was issued,
   checked at each Execute) => no slot is ever overwritten, in histories without re-entrant user
   code ([plain]: a request re-issued from a callback is not tested by [safe_run]) *)
Theorem C16_no_overwrite : forall v ops, plain ops = true -> safe_run code v ops (init_state code) = true ->
  a_lost (arun code v ops (init_state code)) = [].
Proof.
  intros v ops Hp H.
  exact (no_overwrite_in_window code gen_good v ops _ (ainv_init code gen_good) (conj eq_refl eq_refl) Hp H).
Qed.
Print Assumptions C16_no_overwrite.

Theorem C16_right_reply : forall ops d tid rid,
  let σ := arun code VDict ops (init_state code) in
  In (d, OCb tid rid) (a_fired σ) -> In (d, tid) (a_sent σ).
Proof. intros ops d tid rid σ. apply (d_cb _ (dinv_run code gen_good ops)). Qed.
Print Assumptions C16_right_reply.

Theorem C16_solicited_delivered : forall σ u tid rid d p',
  dpop (a_pending σ) tid = Some (d, p') ->
  astep code VDict σ (Segment [(u, tid, rid)]) =
  react code VDict (move_fired σ p' d (OCb tid rid)) d (OCb tid rid).
Proof. intros σ u tid rid d p' E. rewrite (segment1 code gen_good), E. reflexivity. Qed.
Print Assumptions C16_solicited_delivered.

Theorem C16_tid_on_wire : forall v ops d t,
  In (d, t) (a_sent (arun code v ops (init_state code))) -> t = (ac_tid_init code + d) mod 65536 /\ t < 65536.
Proof.
  intros v ops d t Hin. pose proof (ainv_run code gen_good v ops _ (ainv_init code gen_good)) as I.
  destruct (i_range _ _ I _ _ Hin) as [_ ->]. split; auto. apply N.mod_lt. discriminate.
Qed.
Print Assumptions C16_tid_on_wire.

Theorem C16_distinct : forall v ops d1 d2 t1 t2,
  let σ := arun code v ops (init_state code) in
  (forall d, In d (outstanding σ) -> a_alloc σ - d < 65536) ->      (* window σ < 65536 *)
  In d1 (outstanding σ) -> In d2 (outstanding σ) -> d1 <> d2 ->
  In (d1, t1) (a_sent σ) -> In (d2, t2) (a_sent σ) -> t1 <> t2.
Proof.
  intros v ops d1 d2 t1 t2 σ Hw H1 H2 Hne S1 S2.
  pose proof (ainv_run code gen_good v ops _ (ainv_init code gen_good)) as I. fold σ in I.
  destruct (i_range _ _ I _ _ S1) as [R1 ->]. destruct (i_range _ _ I _ _ S2) as [R2 ->].
  pose proof (Hw _ H1). pose proof (Hw _ H2). apply tid_distinct; auto; lia.
Qed.
Print Assumptions C16_distinct.

(* the property text has no window hypothesis; without it the statement is false: the witness
   below (d1 = 1, d2 = 65537, t = 1) contradicts it; the negation itself is not stated *)
Definition C16_distinct_full_statement : Prop := forall ops d1 d2 t,
  let σ := arun code VDict ops (init_state code) in
  In d1 (outstanding σ) -> In d2 (outstanding σ) ->
  sent_tid (a_sent σ) d1 = Some t -> sent_tid (a_sent σ) d2 = Some t -> d1 = d2.

Theorem C16_distinct_refuted :
  let σ := arun code VDict wrap_history (init_state code) in
  In 1 (outstanding σ) /\ In 65537 (outstanding σ) /\
  sent_tid (a_sent σ) 1 = Some 1 /\ sent_tid (a_sent σ) 65537 = Some 1 /\ a_lost σ = [1].
Proof. cbv zeta. rewrite wrap_state. vm_compute. repeat split; auto. Qed.
Print Assumptions C16_distinct_refuted.

(* ... and the overwritten deferred never fires, not even at connectionLost *)
Theorem C16_once_refuted :
  let σ := arun code VDict (wrap_history ++ [Reply 1 7; Lost]) (init_state code) in
  In 1 (issued σ) /\ ~ In 1 (fired_dids σ) /\ a_pending σ = [] /\ a_fired σ = [(65537, OCb 1 7)].
Proof. cbv zeta. rewrite arun_app, wrap_state. vm_compute. repeat split; auto. intros [H|[]]. discriminate. Qed.
Print Assumptions C16_once_refuted.

Theorem C16_window_is_sharp :
  safe_run code VDict [Made; Execute; Skip 65534; Execute] (init_state code) = true /\
  safe_run code VDict wrap_history (init_state code) = false.
Proof. split; lazy; reflexivity. Qed.
Print Assumptions C16_window_is_sharp.

(* (true of any state, reachable or not) *)
Theorem C16_unsolicited_dropped : forall ops u tid rid,
  let σ := arun code VDict ops (init_state code) in
  ~ In tid (map fst (a_pending σ)) -> astep code VDict σ (Segment [(u, tid, rid)]) = σ.
Proof. intros ops u tid rid σ. apply (reply_unknown_noop code gen_good). Qed.
Print Assumptions C16_unsolicited_dropped.

Theorem C16_duplicate_dropped : forall ops u tid rid u' rid', plain ops = true ->
  let σ := arun code VDict ops (init_state code) in
  let σ1 := astep code VDict σ (Segment [(u, tid, rid)]) in
  astep code VDict σ1 (Segment [(u', tid, rid')]) = σ1.
Proof.
  intros ops u tid rid u' rid' Hp σ σ1.
  apply (reply_unknown_noop code gen_good). unfold σ1. rewrite (segment1 code gen_good).
  pose proof (dpop_spec (a_pending σ) tid) as S.
  destruct (dpop (a_pending σ) tid) as [[d p']|]; [|exact S].
  (* the first copy took the entry out; the callback does nothing; the keys were distinct *)
  rewrite react_noreact by (apply (noreact_run code); [split; reflexivity|exact Hp]). cbn.
  destruct S as (a & b & Ep & ->).
  pose proof (d_keys _ (dinv_run code gen_good ops)) as Hn. fold σ in Hn.
  rewrite Ep, map_app in Hn. rewrite map_app. exact (NoDup_remove_2 _ _ _ Hn).
Qed.
Print Assumptions C16_duplicate_dropped.

(* also when errbacks call execute() again while connectionLost is still running: the table ends up
   empty, nothing that had fired is forgotten, every deferred that was pending got ConnectionException *)
Theorem C16_lost : forall v σ,
  let σ' := astep code v σ Lost in
  a_pending σ' = [] /\ a_conn σ' = false /\
  (forall x, In x (a_fired σ) -> In x (a_fired σ')) /\
  (forall k d, In (k, d) (a_pending σ) -> In (d, OErr ConnectionExc) (a_fired σ')).
Proof. intros v σ. exact (lost_loop_drains code gen_good v (a_pending σ) (set_conn σ false) eq_refl eq_refl). Qed.
Print Assumptions C16_lost.

Theorem C16_execute_after_lost : forall v σ, a_conn σ = false ->
  let σ' := astep code v σ Execute in
  a_pending σ' = a_pending σ /\ a_conn σ' = false /\
  a_fired σ' = a_fired σ ++ [(a_alloc σ + 1, OErr ConnectionExc)].
Proof. exact (execute_disconnected code gen_good). Qed.
Print Assumptions C16_execute_after_lost.

(* protocol.close() clears the flag at once: a request issued after close() fails at once, also
   before connectionLost is reported; what was outstanding is errbacked at connectionLost *)
Theorem C16_close : forall v σ,
  let σ' := astep code v σ Close in
  a_conn σ' = false /\ a_pending σ' = a_pending σ /\ a_fired σ' = a_fired σ /\ a_sent σ' = a_sent σ.
Proof. intros v σ. repeat split. Qed.
Print Assumptions C16_close.

Theorem C16_close_then_execute :
  let σ := arun code VDict [Made; Execute; Close; Execute; Lost] (init_state code) in
  a_pending σ = [] /\ a_fired σ = [(2, OErr ConnectionExc); (1, OErr ConnectionExc)].
Proof. vm_compute. split; reflexivity. Qed.
Print Assumptions C16_close_then_execute.

(* (holds for any code record: only connectionMade sets the flag) *)
Theorem C16_stays_lost : forall v ops σ, a_conn σ = false -> no_made ops = true ->
  a_conn (arun code v ops σ) = false.
Proof. exact (disconnected_stays code). Qed.
Print Assumptions C16_stays_lost.

(* replies for different units coalesced into one segment: a reply for another unit than the first
   frame's is skipped and its deferred stays pending (dataReceived takes the unit filter from the
   first frame); the frames behind it are delivered (processIncomingPacket skips a foreign frame and goes on) *)
Theorem C16_mixed_unit_refuted :
  let σ := arun code VDict [Made; Execute; Execute; Execute; Segment [(1, 1, 11); (2, 2, 12); (1, 3, 13)]] (init_state code) in
  a_fired σ = [(1, OCb 1 11); (3, OCb 3 13)] /\ a_pending σ = [(2, 2)].
Proof. vm_compute. split; reflexivity. Qed.
Print Assumptions C16_mixed_unit_refuted.

(* the unit filter exactly: a segment that starts with a reply from unit 0xFF or 0 delivers every
   reply in it (wildcard on the EXPECTED unit); one that starts with unit 1 delivers only unit 1 *)
Theorem C16_wildcard_first_delivers_all :
  let σ := arun code VDict [Made; Execute; Execute; Execute; Execute;
                            Segment [(255, 1, 11); (1, 2, 12); (0, 3, 13); (2, 4, 14)]] (init_state code) in
  a_pending σ = [] /\ a_fired σ = [(1, OCb 1 11); (2, OCb 2 12); (3, OCb 3 13); (4, OCb 4 14)].
Proof. vm_compute. split; reflexivity. Qed.
Print Assumptions C16_wildcard_first_delivers_all.

Theorem C16_plain_unit_first_filters :
  let σ := arun code VDict [Made; Execute; Execute; Execute; Execute;
                            Segment [(1, 2, 12); (255, 1, 11); (0, 3, 13); (2, 4, 14)]] (init_state code) in
  a_pending σ = [(1, 1); (3, 3); (4, 4)] /\ a_fired σ = [(2, OCb 2 12)].
Proof. vm_compute. split; reflexivity. Qed.
Print Assumptions C16_plain_unit_first_filters.

(* FIFO (serial) variant: no transaction id on the wire, so an unsolicited frame cannot be dropped;
   it is handed to the oldest pending request *)
Theorem C16_fifo_unsolicited_misdelivered :
  let σ := arun code VFifo [Made; Execute; Execute; Segment [(1, 999, 5)]] (init_state code) in
  a_fired σ = [(1, OCb 999 5)] /\ a_pending σ = [(2, 2)].
Proof. vm_compute. split; reflexivity. Qed.
Print Assumptions C16_fifo_unsolicited_misdelivered.

(* an errback that re-issues a request while connectionLost is draining the table: _connected is
   already False, so the new request fails at once and nothing is left behind *)
Theorem C16_reentrant_errback :
  let σ := arun code VDict [Made; ExecuteE; Execute; Lost] (init_state code) in
  a_pending σ = [] /\ a_conn σ = false /\
  a_fired σ = [(1, OErr ConnectionExc); (3, OErr ConnectionExc); (2, OErr ConnectionExc)].
Proof. vm_compute. repeat split; reflexivity. Qed.
Print Assumptions C16_reentrant_errback.

(* the order matters: with the flag cleared AFTER the loop (everything else as generated) the
   re-issued request is filed behind the snapshot being drained and never fires *)
Theorem C16_clear_first_needed :
  (let σ := arun code_clear_late VDict [Made; ExecuteE; Lost] (init_state code_clear_late) in
   a_pending σ = [(2, 2)] /\ a_conn σ = false /\ a_fired σ = [(1, OErr ConnectionExc)]) /\
  (let σ := arun code_clear_late VFifo [Made; ExecuteE; Lost] (init_state code_clear_late) in
   a_pending σ = [(2, 2)] /\ a_conn σ = false /\ a_fired σ = [(1, OErr ConnectionExc)]).
Proof. vm_compute. repeat split; reflexivity. Qed.
Print Assumptions C16_clear_first_needed.

Theorem C16_reentrant_callback :
  let σ := arun code VDict [Made; ExecuteC; Reply 1 10; Reply 2 20] (init_state code) in
  a_pending σ = [] /\ a_fired σ = [(1, OCb 1 10); (2, OCb 2 20)] /\ a_sent σ = [(1, 1); (2, 2)].
Proof. vm_compute. repeat split; reflexivity. Qed.
Print Assumptions C16_reentrant_callback.

(* the hypotheses above are satisfiable together on a history in which deferreds really fire *)
Example C16_nonvacuous :
  let ops := [Made; Execute; Execute; Execute; Reply 3 30; Reply 1 10; Reply 9 90; Reply 1 11; Lost; Execute] in
  let σ := arun code VDict ops (init_state code) in
  plain ops = true /\ safe_run code VDict ops (init_state code) = true /\
  a_fired σ = [(3, OCb 3 30); (1, OCb 1 10); (2, OErr ConnectionExc); (4, OErr ConnectionExc)] /\
  a_pending σ = [] /\ a_lost σ = [].
Proof. vm_compute. repeat split; reflexivity. Qed.
Print Assumptions C16_nonvacuous.
