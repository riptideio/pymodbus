(* C09 add-on — C09_silence_* are stated over the flags the handlers read (broadcast_enable,
   ignore_missing_slaves); this ties them to what the user passed to a Start*Server factory. *)
From PM.theories Require Import Base Ladder Frontends CorrFrontends Wiring.
From PM.Generated Require Import GenFrontends GenWiring.
From PM.proofs Require Import FrontendsC12_proofs Wiring_proofs.
Import ListNotations.
Open Scope string_scope.
Open Scope list_scope.

Theorem C09_cfg_flags_served : forall f fe flag,
  In f factories -> In (fa_target f, fe) servers ->
  (flag = "ignore_missing_slaves" \/ (flag = "broadcast_enable" /\ fe <> TwTcp /\ fe <> TwUdp)) ->
  exists roles s p, assoc_s (fa_target f) server_wiring = Some roles /\ assoc_s flag roles = Some s /\
    wparam s = Some p /\
    forall V (env : string -> option V) (x d : V),
      (env flag = Some x -> configured s (ctor_sees f env p) d = x) /\
      (env flag = None -> configured s (ctor_sees f env p) d = d).
Proof.
  intros f fe flag Hf Hs Hflag.
  assert (Hr : In flag (required_roles fe)).
  { destruct Hflag as [->|[-> [Ha Hb]]]; [apply ignore_required | apply broadcast_required; assumption]. }
  destruct (factory_role_spec f fe flag Hf Hs Hr) as (roles & s & p & H1 & H2 & Hp & Hsrc).
  exists roles, s, p. repeat (split; [assumption|]).
  intros V env x d. rewrite ctor_sees_eq, Hsrc.
  destruct (configured_spec s (wparam_configurable s p Hp) V x d) as [Ha Hb].
  split; intros ->; assumption.
Qed.
Print Assumptions C09_cfg_flags_served.

Example C09_cfg_nonvacuous :
  exists f, In f factories /\ In (fa_target f, SyncTcp) servers /\
    ctor_sees f (fun k => if String.eqb k "broadcast_enable" then Some true else None) "broadcast_enable" = Some true.
Proof.
  exists (factory_at 0). split; [apply (nth_error_In factories 0); reflexivity|].
  split; [apply (nth_error_In servers 1); reflexivity | reflexivity].
Qed.
Print Assumptions C09_cfg_nonvacuous.
