(* C10 add-on — the context object handed to a factory or constructor, an EMPTY multi-unit context
   included, is the one the handlers look units up in (`context or ModbusServerContext()` keeps it:
   a context cannot be false). *)
From PM.theories Require Import Base Ladder Frontends CorrFrontends Wiring.
From PM.Generated Require Import GenFrontends GenWiring.
From PM.proofs Require Import Wiring_proofs.
Import ListNotations.
Open Scope string_scope.
Open Scope list_scope.

Theorem C10_cfg_context_served : forall f fe,
  In f factories -> In (fa_target f, fe) servers ->
  exists roles s p, assoc_s (fa_target f) server_wiring = Some roles /\ assoc_s "context" roles = Some s /\
    wparam s = Some p /\
    forall V (env : string -> option V) (user_truth : V -> bool) (x d : V),
      env "context" = Some x ->
      configured_t s (py_truthy (role_overrides truth_facts "context") user_truth) (ctor_sees f env p) d = x.
Proof.
  intros f fe Hf Hs.
  destruct (entry_point_serves_user_value f fe "context" Hf Hs (context_required fe)) as (roles & s & p & H1 & H2 & H3 & H4).
  exists roles, s, p. repeat (split; [assumption|]).
  intros V env ut x d. apply H4.
Qed.
Print Assumptions C10_cfg_context_served.

Theorem C10_cfg_constructor_keeps_context : forall srv fe,
  In (srv, fe) servers ->
  exists roles s, assoc_s srv server_wiring = Some roles /\ assoc_s "context" roles = Some s /\
    forall V (user_truth : V -> bool) (x d : V),
      configured_t s (py_truthy (role_overrides truth_facts "context") user_truth) (Some x) d = x /\
      configured_t s (py_truthy (role_overrides truth_facts "context") user_truth) None d = d.
Proof. intros srv fe H. exact (constructor_serves_user_value srv fe "context" H (context_required fe)). Qed.
Print Assumptions C10_cfg_constructor_keeps_context.

Example C10_cfg_nonvacuous : role_overrides truth_facts "context" = false /\ (9 <= length servers)%nat.
Proof. split; [apply no_role_overrides | apply Nat.leb_le; reflexivity]. Qed.
Print Assumptions C10_cfg_nonvacuous.
