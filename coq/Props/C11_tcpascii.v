(* Props/C11_tcpascii.v — C11 (resynchronisation, never deaf), ASCII framer (TCP is out of the
   property's scope).  [a_sync st]: empty buffer, cleared header. *)
From PM.theories Require Import Base Expr Struct FrBaseA Lrc FrAscii FrSpecA.
From PM.Generated Require Import GenFramerA.
From PM.proofs Require Import FrA_stream_proofs FrA_ascii_proofs FrA_ascii_resync_proofs.
Open Scope list_scope.
Open Scope Z_scope.

(* one OR several whole frames per read, ANY mix of served and foreign units; backlog 0 afterwards *)
Theorem C11_after_sync_ascii : forall (dec : bytes -> dres) (c : cfg) (st : astate) (vs : list frame),
  a_sync st -> Forall (stream_frame KAscii dec c) vs ->
  exists st', a_recv base lrc ascii dec c st (concat (map (spec_adu KAscii) vs))
              = (st', ref_deliveries KAscii c vs, Done) /\ a_sync st'.
Proof.
  intros dec c [b h] vs [Hb Hh] Hv. cbn [a_buf a_hdr] in Hb, Hh. subst b h.
  destruct (framer_whole_frames (ascii_framer_ok dec c) vs Hv) as (h' & E & ->). eexists. split; [exact E|now split].
Qed.
Print Assumptions C11_after_sync_ascii.

(* recovery from an ARBITRARY state (any buffered garbage, any header): one read of valid frames either
   raises (the open finding below: a valid-LRC frame in the garbage whose PDU the decoder rejects) or
   ends synchronised AND has delivered every one of them; garbage costs nothing but itself *)
Theorem C11_recover_ascii_partial : forall (dec : bytes -> dres) (c : cfg) (st : astate) (vs : list frame) st' ds o,
  vs <> [] -> Forall (valid_frame KAscii dec c) vs ->
  a_recv base lrc ascii dec c st (concat (map (spec_adu KAscii) vs)) = (st', ds, o) ->
  o = Done -> a_sync st' /\ exists ds0, ds = ds0 ++ map (spec_delivery KAscii) vs.
Proof. exact ascii_recover. Qed.
Print Assumptions C11_recover_ascii_partial.

(* with the serial handlers' reset-on-exception no hypothesis is left: from ANY state, after one
   read of valid frames the receiver is synchronised *)
Theorem C11_recover_ascii : forall (dec : bytes -> dres) (c : cfg) (st : astate) (vs : list frame),
  vs <> [] -> Forall (valid_frame KAscii dec c) vs ->
  a_sync (fst (fst (a_recv_h base lrc ascii dec c st (concat (map (spec_adu KAscii) vs))))).
Proof.
  intros dec c st vs Hne Hv. unfold a_recv_h.
  destruct (a_recv base lrc ascii dec c st (concat (map (spec_adu KAscii) vs))) as [[s1 d1] o] eqn:E.
  destruct o; cbn [fst].
  - eapply ascii_recover; eauto.
  - now split.
  - now apply ascii_recv_no_fuel_out in E.
Qed.
Print Assumptions C11_recover_ascii.

(* valid traffic cut anywhere loses nothing: all frames are delivered for every division into reads
   (the statement of C06_ascii) *)
Theorem C11_backlog_ascii : forall (dec : bytes -> dres) (c : cfg) (frames : list frame) (chunks : list bytes),
  Forall (stream_frame KAscii dec c) frames ->
  concat chunks = concat (map (spec_adu KAscii) frames) ->
  exists s', feed (a_recv base lrc ascii dec c) (a_init ascii) chunks
             = (s', ref_deliveries KAscii c frames, true).
Proof. intros dec c. exact (framer_chunking (ascii_framer_ok dec c)). Qed.
Print Assumptions C11_backlog_ascii.

(* the scan loop terminates from ANY state on ANY input: each iteration consumes at least one byte *)
Theorem C11_no_fuel_out_ascii : forall (dec : bytes -> dres) (c : cfg) (st : astate) (chunk : bytes) st' ds o,
  a_recv base lrc ascii dec c st chunk = (st', ds, o) -> o <> OutOfFuel.
Proof. exact ascii_recv_no_fuel_out. Qed.
Print Assumptions C11_no_fuel_out_ascii.

(* with the serial handlers' reset-on-exception, a call that raises leaves the receiver synchronised *)
Theorem C11_recover_ascii_handler : forall (dec : bytes -> dres) (c : cfg) (st : astate) (chunk : bytes) st' ds e,
  a_recv_h base lrc ascii dec c st chunk = (st', ds, Exc e) -> a_sync st'.
Proof.
  intros dec c st chunk st' ds e. unfold a_recv_h.
  destruct (a_recv base lrc ascii dec c st chunk) as [[s1 d1] [| |]]; intros H; try discriminate.
  injection H as <- _ _. now split.
Qed.
Print Assumptions C11_recover_ascii_handler.

(* REFUTED at the bare framer (open finding F-C11-ascii-undecodable-frame-stuck): a frame with a
   valid LRC whose PDU the decoder rejects is never consumed; however many valid frames follow,
   one per read, nothing is ever delivered and every call raises *)
Definition C11_never_deaf_full_statement : Prop :=
  forall (dec : bytes -> dres) (c : cfg) (garbage : bytes) (v : frame), valid_frame KAscii dec c v ->
  exists n, snd (fst (feed (a_recv base lrc ascii dec c) (a_init ascii)
                           (garbage :: repeat (spec_adu KAscii v) n))) <> [].
Theorem C11_ascii_stuck_refuted : exists dec c garbage v,
  valid_frame KAscii dec c v /\
  forall n, snd (fst (feed (a_recv base lrc ascii dec c) (a_init ascii)
                           (garbage :: repeat (spec_adu KAscii v) n))) = [].
Proof.
  exists stuck_dec, stuck_cfg, (spec_adu KAscii stuck_frame), stuck_good. split; [repeat split; try reflexivity; cbn; lia|].
  intros n. apply (ascii_undecodable_stuck stuck_dec stuck_cfg stuck_frame);
    repeat split; try reflexivity; cbn; lia.
Qed.
Print Assumptions C11_ascii_stuck_refuted.

Example C11_nonvacuous :
  a_sync (a_init ascii) /\
  valid_frame KAscii (fun _ => DMsg 3) {| c_units := [1]; c_single := None |}
              {| f_tid := 0; f_pid := 0; f_uid := 1; f_pdu := [3%N; 0%N; 0%N; 0%N; 1%N] |}.
Proof. split; [split; reflexivity|repeat split; cbn; lia]. Qed.
