(* Props/C08_e2e.v — "returned decoded with the values the server sent", END TO END for the TCP client:
   transaction model (generated retry skeleton) + concrete socket framer (FrTcp) + the client PDU decoder model
   (Pdu.py_decode_client behind the ClientDecoder.decode wrapper) versus the SPECIFICATION of the response PDU.
   For every response message m of the specification (normal response of any function code with a proved decoder —
   in particular FC 1-6, 15, 16, 22, 23 — or exception response) that is well-formed and within the protocol limits:
   if a healthy transport serves the MBAP frame spec_adu_tcp tid 0 unit (spec_pdu m), execute returns the object
   py_decode_client (spec_pdu m), whose class is the specified one and whose fields are m's (abs / msg_matches).
   The proof of C08_e2e_tcp is the composition itself: decode_conforms of the PDU development gives the decoded object,
   the frame is shown valid for the client's unit filter, and ClientTcp_proofs.conformant_reply_tcp returns it. *)
From PM.theories Require Import Base Struct PduCls PduSpec Pdu CorrPdu.
From PM.Generated Require Import GenPdu.
From PM.theories Require Import Expr FrBaseA FrTcp FrSpecA.
From PM.Generated Require Import GenFramerA GenClient.
From PM.theories Require Import Client CorrClient ClientTcp.
From PM.proofs Require Import Pdu_dec2_proofs Pdu_size_proofs Client_proofs ClientTcp_proofs ClientE2E_proofs.
Open Scope list_scope.
Open Scope Z_scope.

Theorem C08_e2e_tcp : forall (m : PduSpec.msg) tid c st rq rest,
  msg_is_request m = false -> spec_wf m = true -> conforming_decode m = true -> spec_limits m = true ->
  c_framing c = FTcp -> c_udp c = false -> s_tx st = [] -> c_bcast c && (r_unit rq =? 0) = false ->
  0 <= retries_given c -> 0 <= tid < 65536 -> 0 <= r_unit rq < 256 ->
  let f := {| f_tid := tid; f_pid := 0; f_uid := r_unit rq; f_pdu := spec_pdu m |} in
  exists st' o ob d,
    execute code tstate (tcp_framer pdu_dec) c st rq
      ((if s_conn st then [] else [Nothing])
         ++ attempt true (tcp_script (full_of tstate c st rq) (spec_adu KTcp f)) ++ rest) = (st', o)
    /\ o_res o = RReply {| m_tid := tid; m_uid := r_unit rq;
                           m_fc := match obj_fc ob with Ok fc => fc | Raise _ => 0 end;
                           m_id := pdu_id (spec_pdu m) |}
    /\ py_decode_client (spec_pdu m) = Ok ob
    /\ class_of ob = spec_class m /\ abs ob = Some d /\ msg_matches m d = true
    /\ s_tx st' = [] /\ s_tid st' = next_tid code (s_tid st).
Proof.
  intros m tid c st rq rest Hrq Hwf Hcd Hlim Hfr Hudp Htx Hb Hr Htid Hu f.
  destruct (decode_conforms m Hwf Hcd) as (ob & d & Hdec & Hcls & Habs & Hmm).
  rewrite Hrq in Hdec. cbn [py_decode] in Hdec.
  destruct (spec_pdu_head m) as (fcb & data & Hpdu & Hexc).
  pose proof (spec_pdu_limit m Hlim) as Hlen. unfold PduSpec.len in Hlen.
  assert (Hd : pdu_dec (spec_pdu m) = FrBaseA.DMsg (match obj_fc ob with Ok fc => fc | Raise _ => 0 end)).
  { unfold pdu_dec, py_decode_wrapper. cbn [py_decode]. rewrite Hdec. reflexivity. }
  assert (Hv : valid_frame KTcp pdu_dec (unit_cfg (r_unit rq)) f).
  { split; [|split].
    - subst f. unfold frame_wf, tcp_wf. cbn [f_tid f_pid f_uid f_pdu]. repeat split; lia.
    - subst f. cbn [f_pdu]. rewrite Hd. reflexivity.
    - subst f. cbn [f_uid]. apply unit_cfg_accepts. }
  destruct (conformant_reply_tcp pdu_dec c st rq f fcb data rest Hfr Hudp Htx Hb Hr eq_refl Hv Hpdu Hexc)
    as (st' & o & A & B & Cc & D).
  exists st', o, ob, d. split; [exact A|]. split.
  - rewrite B. unfold msg_of. subst f. cbn [spec_delivery d_tid d_uid d_pdu f_tid f_uid f_pdu]. rewrite Hd. reflexivity.
  - repeat split; assumption.
Qed.
Print Assumptions C08_e2e_tcp.

(* the decoder premise of Props/C08_tcp.v / C13_tcp.v holds of the PDU decoder model: ClientDecoder.decode never raises *)
Theorem C08_decoder_never_raises : forall p e, pdu_dec p <> FrBaseA.DRaise e.
Proof.
  intros p e. unfold pdu_dec, py_decode_wrapper. destruct (py_decode false p) as [o|x]; cbn; discriminate.
Qed.
Print Assumptions C08_decoder_never_raises.

Example C08_e2e_nonvacuous :
  exists st' o, execute code tstate (tcp_framer pdu_dec) cfg_tcp_demo (Build_cstate 65535 [] (t_init tcp) [] false) rq_rh
      ([Nothing] ++ attempt true (tcp_script false
          (spec_adu KTcp {| f_tid := 0; f_pid := 0; f_uid := 5; f_pdu := spec_pdu (MReadHoldingRsp [7; 65535]) |})) ++ []) = (st', o)
    /\ exists r, o_res o = RReply r /\ m_tid r = 0 /\ m_uid r = 5 /\ m_fc r = 3.
Proof.
  destruct (C08_e2e_tcp (MReadHoldingRsp [7; 65535]) 0 cfg_tcp_demo (Build_cstate 65535 [] (t_init tcp) [] false) rq_rh []
              eq_refl eq_refl eq_refl eq_refl eq_refl eq_refl eq_refl eq_refl)
    as (st' & o & ob & d & A & B & Cc & _).
  1-3: cbn; lia.
  exists st', o. split; [exact A|]. eexists. split; [exact B|]. cbn [m_tid m_uid m_fc]. repeat split.
  vm_compute in Cc. inversion Cc; subst. reflexivity.
Qed.
Print Assumptions C08_e2e_nonvacuous.
